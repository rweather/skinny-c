(* WholeParKey.v — the key setters of the parallel-ECB objects (skinny128/64_parallel_ecb_set_key, mantis_parallel_ecb_set_key,
   mantis_parallel_ecb_swap_modes) as WHOLE functions: thin wrappers that run the cipher's key function on the key schedule
   object the parallel object points to.  The specification applies the key-schedule specifications of WholeKey.v /
   WholeMantisKey.v to that region.  Memory: 0 = the parallel-ECB object, 1 = key, rks = the key schedule object. *)
From Coq Require Import List.
From Skinny Require Import IR Anf IRCheck KernelSpecs WholeSpecs.
Import ListNotations.

Section Lift.
  Variable B : Type.
  Notation reg := (reg B).
  Definition w_par_lift (inner : mem B -> mem B) (rks : nat) (m : mem B) : mem B :=
    [reg m 0; reg m 1; reg (inner [reg m rks; reg m 1]) 0].
  (* swap_modes: no key argument; the object and the schedule are observed *)
  Definition w_par_swap (inner : mem B -> mem B) (rks : nat) (m : mem B) : mem B :=
    [reg m 0; reg (inner [reg m rks]) 0].
End Lift.

Lemma w_par_lift_homU : forall innerP innerB rks, homU innerP innerB ->
  homU (w_par_lift poly innerP rks) (w_par_lift bool innerB rks).
Proof.
  intros innerP innerB rks H rho m. unfold w_par_lift.
  unfold mmap at 1. cbn [map]. rewrite !reg_mmap. f_equal. f_equal. f_equal.
  rewrite <- reg_mmap, H. unfold mmap at 1. cbn [map]. reflexivity.
Qed.
Lemma w_par_swap_homU : forall innerP innerB rks, homU innerP innerB ->
  homU (w_par_swap poly innerP rks) (w_par_swap bool innerB rks).
Proof.
  intros innerP innerB rks H rho m. unfold w_par_swap.
  unfold mmap at 1. cbn [map]. rewrite !reg_mmap. f_equal. f_equal.
  rewrite <- reg_mmap, H. unfold mmap at 1. cbn [map]. reflexivity.
Qed.
Print Assumptions w_par_lift_homU.
