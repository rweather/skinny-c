(* WholeContracts.v — non-vacuity of the call contracts that pctr_model and ppar_model assume of the interpretation cB of a
   procedure call: for EVERY block function E there is an interpretation that meets the single-block contract and the two
   parallel-ECB contracts (it decodes the first argument bytes and applies E), so those theorems are not implications with
   unsatisfiable premises; and a concrete block function, the model's SKINNY-128 encryption under a key schedule.  The
   contracts of vctr_model_* (argument in the transposed lane layout) and of pparM_model (two data arguments) have no witness
   here. *)
From Coq Require Import List NArith Arith.
From Skinny Require Import Bits IR KernelSpecs KernelHom ModelCipher ModelCtr WholeBridge WholeCtrModel.
Import ListNotations.

Definition bytes_of_bits8 (n : nat) (l : list bool) : list byte := map (c8_of_bits bool false) (bytes_of bool false n l).

Lemma decode_bits : forall (blk : list byte) rest, bytes_of_bits8 (length blk) (concat (bitsB blk) ++ rest) = blk.
Proof.
  intros blk rest. unfold bytes_of_bits8. rewrite <- (bitsB_length blk), bytes_of_app_concat, map_map by apply bits_len8.
  rewrite <- (map_id blk) at 2. apply map_ext. intros b. apply (c8_of_bits_of_c8 bool false).
Qed.

(* the interpretation: decode the first n bytes of the argument, apply G *)
Definition cB_of (n : nat) (G : list byte -> list byte) (f : nat) (bits : list bool) : list bool :=
  concat (bitsB (G (bytes_of_bits8 n bits))).

Theorem block_contract_satisfiable : forall (E : list byte -> list byte) bs kn (KS : list (list bool)) fno,
  forall blk, length blk = bs ->
  cB_of bs E fno (concat (bitsB blk) ++ concat (firstn kn KS)) = concat (bitsB (E blk)).
Proof. intros E bs kn KS fno blk H. unfold cB_of. rewrite <- H, decode_bits. reflexivity. Qed.

(* the parallel contracts: one interpretation for both callees *)
Definition cB_par (bs psize fvec : nat) (E : list byte -> list byte) (f : nat) (bits : list bool) : list bool :=
  if Nat.eqb f fvec then cB_of psize (fun grp => concat (map E (blocks bs grp))) f bits else cB_of bs E f bits.
Theorem par_contracts_satisfiable : forall (E : list byte -> list byte) bs psize kn (KS : list (list bool)) fvec fblk, fvec <> fblk ->
  (forall blk, length blk = bs -> cB_par bs psize fvec E fblk (concat (bitsB blk) ++ concat (firstn kn KS)) = concat (bitsB (E blk))) /\
  (forall grp, length grp = psize ->
     cB_par bs psize fvec E fvec (concat (bitsB grp) ++ concat (firstn kn KS)) = concat (bitsB (concat (map E (blocks bs grp))))).
Proof.
  intros E bs psize kn KS fvec fblk Hne. unfold cB_par. split.
  - intros blk H. rewrite (proj2 (Nat.eqb_neq fblk fvec)) by congruence. apply block_contract_satisfiable. exact H.
  - intros grp H. rewrite Nat.eqb_refl. unfold cB_of. rewrite <- H, decode_bits. reflexivity.
Qed.

(* a concrete E for pctr_model: SKINNY-128-128 under the key 01 02 .. 10, and a 19-byte request at offset 5 on which the
   model's crypt is defined *)
Definition ex_key : list byte := map byte_of_N (map N.of_nat (seq 1 16)).
Definition ex_ks : keysched byte := snd (m128_set_key {| ks_rounds := 0; ks_sched := repeat (zhalf byte byte0) 56 |} (Some ex_key) 16).
Definition ex_E (blk : list byte) : list byte := m128_encrypt ex_ks blk.
Example ex_crypt_defined :
  exists c' outb, crypt unit (fun _ => ex_E) 16 1
    {| c_key := tt; c_lanes := [map byte_of_N (map N.of_nat (seq 200 16))]; c_ecounter := zeros 16; c_off := 5 |}
    (map byte_of_N (map N.of_nat (seq 0 19))) = Some (c', outb) /\ length outb = 19.
Proof. eexists. eexists. split; [vm_compute; reflexivity | reflexivity]. Qed.
Example ex_E_length : length (ex_E (zeros 16)) = 16.
Proof. vm_compute. reflexivity. Qed.

Print Assumptions block_contract_satisfiable.
Print Assumptions par_contracts_satisfiable.
Print Assumptions ex_crypt_defined.
