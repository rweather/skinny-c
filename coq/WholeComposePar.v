(* WholeComposePar.v — the parallel-ECB encryption of SKINNY-128 / SKINNY-64 (WholePar.v) with the SINGLE-BLOCK callee — the
   path taken for the blocks left over after the last whole group, and for every block of a request shorter than a group —
   interpreted by skinny128/64_ecb_encrypt's own translated code (cB_run, WholeCompose.v).  The VECTOR callee stays a
   procedure V under its contract "E on every block of the group" (its body is tied by the vector-kernel obligations of tie T
   and by C). *)
From Coq Require Import List NArith Arith.
From Skinny Require Import Bits IR SIR Anf IRCheck KernelSpecs SIRCheck WholeSpecs SIRProofs ModelCipher ModelCtr
                           WholeBridge WholeKey WholeProc WholeCtrModel WholePar WholeCompose.
From Skinny Require ProofsApiCtr.
Import ListNotations.

Definition cB_half (fblk : nat) (run V : nat -> list bool -> list bool) (f : nat) (bits : list bool) : list bool :=
  if Nat.eqb f fblk then run f bits else V f bits.

(* ppar_model with the single-block callee run by code that meets its contract on every object starting with the schedule
   image pre; region 3 is pre followed by anything *)
Section ParComposed.
  Variables (bs kn : nat) (E : list byte -> list byte) (pre : list (list bool)) (run : nat -> list bool -> list bool).
  Hypothesis Hbs : 0 < bs.
  Hypothesis Lpre : length pre = kn.
  Hypothesis pre8 : bytes8 pre.
  Hypothesis HE : forall blk, length blk = bs -> length (E blk) = bs.
  Hypothesis Hrun : forall fno KS, firstn kn KS = pre -> forall blk, length blk = bs ->
    run fno (concat (bitsB blk) ++ concat (firstn kn KS)) = concat (bitsB (E blk)).

  Lemma ppar_composed_gen : forall fields code fuel pl sh pl' sh' c t has_vt psize fvec fblk size (rsz : list nat),
    fields_okb fields = true ->
    flat fields fuel pl sh code = Some (pl', sh', c, t) ->
    check_proc (size :: size :: rsz) c (pspec kn poly has_vt psize bs fvec fblk size) = true ->
    forall (V : nat -> list bool -> list bool) (out inp : list byte) (EO back : list (list bool)) (rest : mem bool),
    0 < psize -> psize mod bs = 0 -> size mod bs = 0 -> fvec <> fblk -> length out = size -> length inp = size -> bytes8 back ->
    let KS := pre ++ back in
    (forall grp, length grp = psize ->
       V fvec (concat (bitsB grp) ++ concat (firstn kn KS)) = concat (bitsB (concat (map E (blocks bs grp))))) ->
    let m0 : mem bool := bitsB out :: bitsB inp :: EO :: KS :: rest in
    shaped (size :: size :: rsz) m0 -> SIRProofs.Inv fields sh m0 ->
    exists st', interp fields (cB_half fblk run V) fuel pl (m0, []) code = Some (pl', st', t)
      /\ fst st' = bitsB (concat (map E (blocks bs inp))) :: bitsB inp :: EO :: KS :: rest.
  Proof.
    intros fields code fuel pl sh pl' sh' c t has_vt psize fvec fblk size rsz Hf Hfl Hk
           V out inp EO back rest Hps Hpm Hsm Hne Ho Hi Hb8 KS HV m0 Hm HI.
    destruct (region_prefix kn pre back Lpre pre8 Hb8) as (LKS & FKS & KS8).
    apply (ppar_model fields code fuel pl sh pl' sh' c t kn has_vt psize bs fvec fblk size rsz Hf Hfl Hk
             (cB_half fblk run V) E out inp EO KS rest Hbs Hps Hpm Hsm Hne); try assumption.
    - unfold KS. rewrite LKS. apply Nat.le_add_r.
    - intros blk Hb. unfold cB_half. rewrite Nat.eqb_refl. exact (Hrun fblk KS FKS blk Hb).
    - intros grp Hg. unfold cB_half. destruct (Nat.eqb fvec fblk) eqn:Ef; [apply Nat.eqb_eq in Ef; congruence|]. apply HV. exact Hg.
  Qed.
End ParComposed.

(* hdrtail is what lies between ks->rounds (4 bytes) and ks->schedule: the slots of Skinny128Key_t hold a uint64_t, so 4 bytes
   of padding follow `rounds` (456 = 8 + 56 * 8); the slots of Skinny64Key_t are 4-byte aligned and nothing does (164 = 4 + 40 * 4) *)
Theorem ppar128_enc_composed :
  forall fields code fuel pl sh pl' sh' c t has_vt psize fvec fblk size (rsz : list nat)     (* skinny128_parallel_ecb_encrypt *)
         code2 fuel2 R pl2 sh2 c2 t2,                                                        (* skinny128_ecb_encrypt *)
  fields_okb fields = true ->
  flat fields fuel pl sh code = Some (pl', sh', c, t) ->
  check_proc (size :: size :: rsz) c (pspec 456 poly has_vt psize 16 fvec fblk size) = true ->
  0 < R -> R <= 56 ->
  flat [ksf] fuel2 [0; 0; 0]%N [(ksf, N.of_nat R)] code2 = Some (pl2, sh2, c2, t2) ->
  check_block_w callP sizes128 2 8 c2 (enc_offs 8 8 R)
    (enc_stepsW poly (k128_subcells poly pxor pand pzero pone) (k128_enc_linear poly pxor pzero pone) R)
    (enc_stepsW bool (k128_subcells bool xorb andb false true) (k128_enc_linear bool xorb false true) R) = true ->
  forall (V : nat -> list bool -> list bool) (out inp hdrtail : list byte) (sched : list (half byte)) (EO back : list (list bool)) (rest : mem bool),
  0 < psize -> psize mod 16 = 0 -> size mod 16 = 0 -> fvec <> fblk ->
  length out = size -> length inp = size -> length hdrtail = 4 -> length sched = 56 -> bytes8 back ->
  let KS := ((rbytes R ++ bitsB hdrtail) ++ concat (map (KernelSpecs2.half_bytes128 bool) sched)) ++ back in
  let E := m128_encrypt {| ks_rounds := N.of_nat R; ks_sched := sched |} in
  (forall grp, length grp = psize ->
     V fvec (concat (bitsB grp) ++ concat (firstn 456 KS)) = concat (bitsB (concat (map E (blocks 16 grp))))) ->
  let m0 : mem bool := bitsB out :: bitsB inp :: EO :: KS :: rest in
  shaped (size :: size :: rsz) m0 -> SIRProofs.Inv fields sh m0 ->
  exists st', interp fields (cB_half fblk (cB_run 16 456 code2 fuel2) V) fuel pl (m0, []) code = Some (pl', st', t)
    /\ fst st' = bitsB (concat (map E (blocks 16 inp))) :: bitsB inp :: EO :: KS :: rest.
Proof.
  intros fields code fuel pl sh pl' sh' c t has_vt psize fvec fblk size rsz code2 fuel2 R pl2 sh2 c2 t2 Hf Hfl Hk HR0 HR Hfl2 Hk2
         V out inp hdrtail sched EO back rest Hps Hpm Hsm Hne Ho Hi Hh Hs Hb8 KS E HV m0 Hm HI.
  exact (ppar_composed_gen 16 456 E (imageR _ (KernelSpecs2.half_bytes128 bool) R hdrtail sched) (cB_run 16 456 code2 fuel2)
           (Nat.lt_0_succ 15) (imageR_length 8 8 56 456 _ _ (KernelHom2.half_bytes128_length bool) eq_refl R hdrtail sched (f_equal (Nat.add 4) Hh) Hs)
           (imageR_bytes8 _ _ hb128_len8 R hdrtail sched) (fun blk _ => ProofsApiCtr.m128_encrypt_length _ blk)
           (fun fno KS' FKS => enc128_contract code2 fuel2 R pl2 sh2 c2 t2 HR0 HR Hfl2 Hk2 fno KS' hdrtail sched Hh Hs FKS)
           fields code fuel pl sh pl' sh' c t has_vt psize fvec fblk size rsz Hf Hfl Hk V out inp EO back rest
           Hps Hpm Hsm Hne Ho Hi Hb8 HV Hm HI).
Qed.

Theorem ppar64_enc_composed :
  forall fields code fuel pl sh pl' sh' c t has_vt psize fvec fblk size (rsz : list nat)     (* skinny64_parallel_ecb_encrypt *)
         code2 fuel2 R pl2 sh2 c2 t2,                                                        (* skinny64_ecb_encrypt *)
  fields_okb fields = true ->
  flat fields fuel pl sh code = Some (pl', sh', c, t) ->
  check_proc (size :: size :: rsz) c (pspec 164 poly has_vt psize 8 fvec fblk size) = true ->
  0 < R -> R <= 40 ->
  flat [ksf] fuel2 [0; 0; 0]%N [(ksf, N.of_nat R)] code2 = Some (pl2, sh2, c2, t2) ->
  check_block_w callP sizes64 2 4 c2 (enc_offs 4 4 R)
    (enc_stepsW poly (k64_subcells poly pxor pand pzero pone) (k64_enc_linear poly pxor pzero pone) R)
    (enc_stepsW bool (k64_subcells bool xorb andb false true) (k64_enc_linear bool xorb false true) R) = true ->
  forall (V : nat -> list bool -> list bool) (out inp hdrtail : list byte) (sched : list (half nib)) (EO back : list (list bool)) (rest : mem bool),
  0 < psize -> psize mod 8 = 0 -> size mod 8 = 0 -> fvec <> fblk ->
  length out = size -> length inp = size -> length hdrtail = 0 -> length sched = 40 -> bytes8 back ->
  let KS := ((rbytes R ++ bitsB hdrtail) ++ concat (map (KernelSpecs2.half_bytes64 bool) sched)) ++ back in
  let E := m64_encrypt {| ks_rounds := N.of_nat R; ks_sched := sched |} in
  (forall grp, length grp = psize ->
     V fvec (concat (bitsB grp) ++ concat (firstn 164 KS)) = concat (bitsB (concat (map E (blocks 8 grp))))) ->
  let m0 : mem bool := bitsB out :: bitsB inp :: EO :: KS :: rest in
  shaped (size :: size :: rsz) m0 -> SIRProofs.Inv fields sh m0 ->
  exists st', interp fields (cB_half fblk (cB_run 8 164 code2 fuel2) V) fuel pl (m0, []) code = Some (pl', st', t)
    /\ fst st' = bitsB (concat (map E (blocks 8 inp))) :: bitsB inp :: EO :: KS :: rest.
Proof.
  intros fields code fuel pl sh pl' sh' c t has_vt psize fvec fblk size rsz code2 fuel2 R pl2 sh2 c2 t2 Hf Hfl Hk HR0 HR Hfl2 Hk2
         V out inp hdrtail sched EO back rest Hps Hpm Hsm Hne Ho Hi Hh Hs Hb8 KS E HV m0 Hm HI.
  exact (ppar_composed_gen 8 164 E (imageR _ (KernelSpecs2.half_bytes64 bool) R hdrtail sched) (cB_run 8 164 code2 fuel2)
           (Nat.lt_0_succ 7) (imageR_length 4 4 40 164 _ _ (KernelHom2.half_bytes64_length bool) eq_refl R hdrtail sched (f_equal (Nat.add 4) Hh) Hs)
           (imageR_bytes8 _ _ hb64_len8 R hdrtail sched) (fun blk _ => ProofsApiCtr.m64_encrypt_length _ blk)
           (fun fno KS' FKS => enc64_contract code2 fuel2 R pl2 sh2 c2 t2 HR0 HR Hfl2 Hk2 fno KS' hdrtail sched Hh Hs FKS)
           fields code fuel pl sh pl' sh' c t has_vt psize fvec fblk size rsz Hf Hfl Hk V out inp EO back rest
           Hps Hpm Hsm Hne Ho Hi Hb8 HV Hm HI).
Qed.
Print Assumptions ppar128_enc_composed.
Print Assumptions ppar64_enc_composed.
