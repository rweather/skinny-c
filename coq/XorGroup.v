(* XorGroup.v — a reflexive decision procedure for equations in an elementary
   abelian 2-group (associative, commutative, every element its own inverse):
   both sides are reified over the atoms that occur, and the equation holds
   when every atom occurs an even number of times in the two sides together. *)
From Coq Require Import List.
Import ListNotations.

Inductive xex : Type := XV (n : nat) | XZ | XX (a b : xex).

(* the normal form of an expression is its parity vector: entry [n] says whether atom [n] occurs an
   odd number of times; [xunit n] is the vector of atom [n] alone, [vxor] adds two vectors *)
Fixpoint xunit (n : nat) : list bool :=
  match n with O => [true] | S n' => false :: xunit n' end.
Fixpoint vxor (a b : list bool) : list bool :=
  match a with
  | [] => b
  | x :: a' => match b with [] => a | y :: b' => xorb x y :: vxor a' b' end
  end.
Fixpoint xnf (t : xex) : list bool :=
  match t with
  | XV n => xunit n
  | XZ => []
  | XX a b => vxor (xnf a) (xnf b)
  end.

Section XorGroup.
  Variable G : Type.
  Variable op : G -> G -> G.
  Variable e : G.
  Hypothesis opA : forall a b c, op (op a b) c = op a (op b c).
  Hypothesis opC : forall a b, op a b = op b a.
  Hypothesis opN : forall a, op a a = e.
  Hypothesis op0 : forall a, op a e = a.

  Fixpoint xev (env : list G) (t : xex) : G :=
    match t with
    | XV n => nth n env e
    | XZ => e
    | XX a b => op (xev env a) (xev env b)
    end.
  (* the element a parity vector stands for: the product of the atoms whose entry is set *)
  Fixpoint vev (env : list G) (v : list bool) {struct v} : G :=
    match v with
    | [] => e
    | b :: v' => match env with
                 | [] => e
                 | g :: env' => op (if b then g else e) (vev env' v')
                 end
    end.

  Lemma op0l a : op e a = a.
  Proof. rewrite opC. apply op0. Qed.
  Lemma op4 a b c d : op (op a b) (op c d) = op (op a c) (op b d).
  Proof.
    rewrite (opA a b (op c d)), <- (opA b c d), (opC b c), (opA c b d), <- (opA a c (op b d)).
    reflexivity.
  Qed.
  Lemma vev_vxor : forall a b env, vev env (vxor a b) = op (vev env a) (vev env b).
  Proof.
    induction a as [|x a IH]; intros b env; simpl.
    - now rewrite op0l.
    - destruct b as [|y b]; simpl.
      + destruct env; now rewrite op0.
      + destruct env as [|g env]; [now rewrite op0|].
        rewrite IH, op4. f_equal.
        destruct x, y; simpl; auto using op0, op0l.
  Qed.
  Lemma vev_unit : forall n env, vev env (xunit n) = nth n env e.
  Proof.
    induction n as [|n IH]; intros [|g env]; simpl; try reflexivity.
    - apply op0.
    - rewrite op0l. apply IH.
  Qed.
  Lemma xev_sound env t : xev env t = vev env (xnf t).
  Proof.
    induction t as [n| |a IHa b IHb]; simpl.
    - now rewrite vev_unit.
    - reflexivity.
    - now rewrite vev_vxor, IHa, IHb.
  Qed.
  Lemma vev_allfalse : forall v env, forallb negb v = true -> vev env v = e.
  Proof.
    induction v as [|b v IH]; intros env H; simpl in *; auto.
    apply andb_prop in H as [Hb Hv]. destruct env as [|g env]; auto.
    destruct b; [discriminate|]. rewrite IH by assumption. apply op0.
  Qed.
  Lemma xg_solve env t1 t2 :
    forallb negb (xnf (XX t1 t2)) = true -> xev env t1 = xev env t2.
  Proof.
    intros H. apply (vev_allfalse _ env) in H. rewrite <- xev_sound in H. simpl in H.
    rewrite <- (op0 (xev env t1)), <- (opN (xev env t2)), <- opA, H. apply op0l.
  Qed.
End XorGroup.

Ltac xg_in x l :=
  match l with
  | nil => constr:(false)
  | cons x _ => constr:(true)
  | cons _ ?t => xg_in x t
  end.
Ltac xg_add x l :=
  let b := xg_in x l in
  match b with true => l | false => constr:(cons x l) end.
Ltac xg_collect op e t l :=
  match t with
  | op ?a ?b => let l1 := xg_collect op e a l in xg_collect op e b l1
  | e => l
  | _ => xg_add t l
  end.
Ltac xg_idx x l :=
  match l with
  | cons x _ => constr:(O)
  | cons _ ?t => let n := xg_idx x t in constr:(S n)
  end.
Ltac xg_reify op e t l :=
  match t with
  | op ?a ?b => let ra := xg_reify op e a l in
                let rb := xg_reify op e b l in constr:(XX ra rb)
  | e => constr:(XZ)
  | _ => let n := xg_idx t l in constr:(XV n)
  end.
(* [xor_group opA opC opN op0], given the four laws of the group in the order
   of Section XorGroup, closes a goal [L = R] between expressions of that group *)
Ltac xor_group opA opC opN op0 :=
  match type of op0 with
  | forall a : ?G, ?op a ?e = a =>
      match goal with
      | |- ?L = ?R =>
          let l0 := xg_collect op e L (@nil G) in
          let l := xg_collect op e R l0 in
          let tl := xg_reify op e L l in
          let tr := xg_reify op e R l in
          change (xev G op e l tl = xev G op e l tr);
          apply (xg_solve G op e opA opC opN op0); reflexivity
      end
  end.
