(* ProofsJunk.v — results are a function of the API inputs only (property C11): nothing the model
   computes depends on the junk the caller's object memory held before it was keyed or initialised.
   The model has no other source of indeterminacy: `step` is a function of (world, op), and the only
   places where earlier memory content enters a world are `ONew` (the fill byte of caller-side memory)
   and the stale schedule slots beyond the round count. *)
From Coq Require Import List NArith Arith.
From Skinny Require Import Bits SpecSkinny ModelCipher Api ProofsSkinny ProofsApiCtr.
Import ListNotations.

(* after a successful set_key the cipher is the specification's cipher of the zero-padded key,
   whatever the object held before *)
Theorem m128_keyed_is_spec : forall (ks : ks128) key (n : nat), 16 <= n <= 48 -> length key = n ->
  length (ks_sched byte ks) = 56 ->
  let z := (n + 15) / 16 in
  exists ks', m128_set_key ks (Some key) (N.of_nat n) = (1%N, ks') /\
    forall blk, length blk = 16 ->
      m128_encrypt ks' blk = skinny128_enc z (pad_to (16 * z) key) blk /\
      m128_decrypt ks' blk = skinny128_dec z (pad_to (16 * z) key) blk.
Proof.
  intros ks key n Hn Hk Hs z.
  rewrite (m128_set_key_padding ks key n Hn Hk). fold z.
  destruct (m128_set_key_spec z ks (pad_to (16 * z) key) (ceil_in123 15 n Hn)
              (pad_to_length _ _) Hs) as (ks' & E & _ & _ & Hb).
  exists ks'. split; [exact E | exact Hb].
Qed.
Theorem m64_keyed_is_spec : forall (ks : ks64) key (n : nat), 8 <= n <= 24 -> length key = n ->
  length (ks_sched nib ks) = 40 ->
  let z := (n + 7) / 8 in
  exists ks', m64_set_key ks (Some key) (N.of_nat n) = (1%N, ks') /\
    forall blk, length blk = 8 ->
      m64_encrypt ks' blk = skinny64_enc z (pad_to (8 * z) key) blk /\
      m64_decrypt ks' blk = skinny64_dec z (pad_to (8 * z) key) blk.
Proof.
  intros ks key n Hn Hk Hs z.
  rewrite (m64_set_key_padding ks key n Hn Hk). fold z.
  destruct (m64_set_key_spec z ks (pad_to (8 * z) key) (ceil_in123 7 n Hn)
              (pad_to_length _ _) Hs) as (ks' & E & _ & _ & Hb).
  exists ks'. split; [exact E | exact Hb].
Qed.

(* hence two objects with different prior contents behave identically once keyed *)
Theorem m128_prior_content_irrelevant : forall (ks1 ks2 : ks128) key (n : nat) blk,
  16 <= n <= 48 -> length key = n -> length blk = 16 ->
  length (ks_sched byte ks1) = 56 -> length (ks_sched byte ks2) = 56 ->
  m128_encrypt (snd (m128_set_key ks1 (Some key) (N.of_nat n))) blk
  = m128_encrypt (snd (m128_set_key ks2 (Some key) (N.of_nat n))) blk
  /\ m128_decrypt (snd (m128_set_key ks1 (Some key) (N.of_nat n))) blk
  = m128_decrypt (snd (m128_set_key ks2 (Some key) (N.of_nat n))) blk.
Proof.
  intros ks1 ks2 key n blk Hn Hk Hb H1 H2.
  destruct (m128_keyed_is_spec ks1 key n Hn Hk H1) as (k1 & -> & S1).
  destruct (m128_keyed_is_spec ks2 key n Hn Hk H2) as (k2 & -> & S2). cbn [snd].
  destruct (S1 blk Hb) as [-> ->]. destruct (S2 blk Hb) as [-> ->]. now split.
Qed.
Theorem m64_prior_content_irrelevant : forall (ks1 ks2 : ks64) key (n : nat) blk,
  8 <= n <= 24 -> length key = n -> length blk = 8 ->
  length (ks_sched nib ks1) = 40 -> length (ks_sched nib ks2) = 40 ->
  m64_encrypt (snd (m64_set_key ks1 (Some key) (N.of_nat n))) blk
  = m64_encrypt (snd (m64_set_key ks2 (Some key) (N.of_nat n))) blk
  /\ m64_decrypt (snd (m64_set_key ks1 (Some key) (N.of_nat n))) blk
  = m64_decrypt (snd (m64_set_key ks2 (Some key) (N.of_nat n))) blk.
Proof.
  intros ks1 ks2 key n blk Hn Hk Hb H1 H2.
  destruct (m64_keyed_is_spec ks1 key n Hn Hk H1) as (k1 & -> & S1).
  destruct (m64_keyed_is_spec ks2 key n Hn Hk H2) as (k2 & -> & S2). cbn [snd].
  destruct (S1 blk Hb) as [-> ->]. destruct (S2 blk Hb) as [-> ->]. now split.
Qed.

(* MANTIS: a successful set_key overwrites every field *)
Theorem mantis_prior_content_irrelevant : forall ks1 ks2 key size r mode,
  fst (mantis_set_key ks1 key size r mode) = 1%N ->
  mantis_set_key ks1 key size r mode = mantis_set_key ks2 key size r mode.
Proof.
  intros ks1 ks2 key size r mode. unfold mantis_set_key.
  destruct key as [k|]; [|cbn; discriminate].
  destruct (N.eqb size 16 && N.leb 5 r && N.leb r 8)%bool; [|cbn; discriminate].
  destruct (N.eqb mode 1); reflexivity.
Qed.

(* initialisation of a CTR object (kind C128): the resulting object does not depend on the caller's
   memory *)
Theorem ctr_init_prior_content_irrelevant : forall w id (f1 f2 : byte),
  let w1 := fst (step w (ONew C128 id f1)) in
  let w2 := fst (step w (ONew C128 id f2)) in
  snd (step w1 (OInit C128 (Some id))) = snd (step w2 (OInit C128 (Some id)))
  /\ lookup (fst (step w1 (OInit C128 (Some id)))) id = lookup (fst (step w2 (OInit C128 (Some id)))) id.
Proof.
  intros w id f1 f2 w1 w2. subst w1 w2. cbn [step fst].
  rewrite !lookup_store_same.
  unfold new_obj. destruct (is_zero_byte f1), (is_zero_byte f2); cbn [step];
  unfold ctr_init, choose, cur_cpu; cbn [w_heap w_cpu w_ambient w_build w_real store_obj];
  destruct (alloc (w_heap w)) as [[[n|] h] ev]; cbn [fst snd]; rewrite ?lookup_store_same; auto.
Qed.
