(* WholePar.v — the WHOLE parallel-ECB functions (skinny128/skinny64_parallel_ecb_encrypt / _decrypt of src/*-parallel.c) as
   translated into SIR.v with BOTH callees kept as procedure calls (WholeProc.v): the vector function of the selected back
   end on a whole group of parallel_size bytes, the single-block function on a left-over block.  The flattened function at a
   public configuration (request size, parallel size, vtable present or not) must be exactly the expected list of calls —
   groups first, then single blocks, at consecutive offsets —, and under any interpretation of the calls that meets the
   contracts "block function = E" and "vector function = E on every block of the group" the output is E applied block by
   block: property C07 for all data at that configuration.  That grouping does not matter is proved once for callees with a
   second data argument advancing in step (chunk_outT: the tweaks of WholeParM.v); chunk_out is the case where it is ignored.
   Memory: 0 = output, 1 = input, 2 = the parallel-ECB object, 3 = the key schedule object, then whatever else. *)
From Coq Require Import List Arith Lia.
From Skinny Require Import ListFacts Bits IR SIR Anf IRCheck KernelHom2 SIRProofs ModelCtr ProofsCtr WholeBridge WholeProc
                           WholeCtr WholeCtrModel.
Import ListNotations.

Section ParSpec.
  Variable kn : nat.
  Definition pcall (fno pos n : nat) : stmt := SStore 0 pos n (ECall fno (EConcat [ELoad 1 pos n; ELoad 3 0 kn])).
  Fixpoint chunk_calls (l : list (nat * nat)) (pos : nat) : list stmt :=
    match l with
    | [] => []
    | (n, fno) :: l' => pcall fno pos n :: chunk_calls l' (pos + n)
    end.
  Definition par_chunks (has_vt : bool) (psize bs fvec fblk size : nat) : list (nat * nat) :=
    let nv := if has_vt then size / psize else 0 in
    repeat (psize, fvec) nv ++ repeat (bs, fblk) ((size - nv * psize) / bs).
  Definition par_calls (has_vt : bool) (psize bs fvec fblk size : nat) : list stmt :=
    chunk_calls (par_chunks has_vt psize bs fvec fblk size) 0.
  Definition pspec (B : Type) (has_vt : bool) (psize bs fvec fblk size : nat) : list (entry B) :=
    match par_calls has_vt psize bs fvec fblk size with
    | [] => []
    | l => [(Some l, ident B)]
    end.
End ParSpec.

(* a specification that is one run of procedure calls, or nothing; pspec kn B ... is convertible to
   calls_spec B (par_calls kn ...), and WholeParM.v's pspecM to calls_spec B (par_callsM kn ...) *)
Definition calls_spec (B : Type) (l : list stmt) : list (entry B) :=
  match l with
  | [] => []
  | s :: l' => [(Some (s :: l'), ident B)]
  end.

Lemma calls_spec_hom : forall sizes l, Forall2 (entry_hom sizes) (calls_spec poly l) (calls_spec bool l).
Proof. intros sizes [|x l]; [constructor|]. constructor; [|constructor]. split; [reflexivity | discriminate]. Qed.

Lemma calls_final : forall fields code fuel pl sh pl' sh' c t sizes (calls : list stmt),
  fields_okb fields = true ->
  flat fields fuel pl sh code = Some (pl', sh', c, t) ->
  check_proc sizes c (calls_spec poly calls) = true ->
  forall (cB : nat -> list bool -> list bool) (m : mem bool), shaped sizes m -> SIRProofs.Inv fields sh m ->
  interp fields cB fuel pl (m, []) code = Some (pl', execB cB c (m, []), t)
  /\ fst (execB cB c (m, [])) = fst (execB cB calls (m, [])).
Proof.
  intros fields code fuel pl sh pl' sh' c t sizes calls Hf Hfl Hk cB m Hm HI.
  destruct (proc_final fields code fuel pl sh pl' sh' c t sizes _ _ Hf Hfl (calls_spec_hom sizes calls) Hk cB m Hm HI) as [Hrun ->].
  split; [exact Hrun | destruct calls; reflexivity].
Qed.

Theorem ppar_final : forall fields code fuel pl sh pl' sh' c t sizes kn has_vt psize bs fvec fblk size,
  fields_okb fields = true ->
  flat fields fuel pl sh code = Some (pl', sh', c, t) ->
  check_proc sizes c (pspec kn poly has_vt psize bs fvec fblk size) = true ->
  forall (cB : nat -> list bool -> list bool) (m : mem bool), shaped sizes m -> SIRProofs.Inv fields sh m ->
  interp fields cB fuel pl (m, []) code = Some (pl', execB cB c (m, []), t)
  /\ fst (execB cB c (m, [])) = fst (execB cB (par_calls kn has_vt psize bs fvec fblk size) (m, [])).
Proof.
  intros fields code fuel pl sh pl' sh' c t sizes kn has_vt psize bs fvec fblk size.
  change (pspec kn poly has_vt psize bs fvec fblk size) with (calls_spec poly (par_calls kn has_vt psize bs fvec fblk size)).
  apply calls_final.
Qed.

Section Chunks.
  Variable kn : nat.
  Variable cB : nat -> list bool -> list bool.
  Variable G : nat -> list byte -> list byte.
  Variables (EO KS : list (list bool)) (rest : mem bool) (inp : list byte).
  Hypothesis HKS8 : bytes8 KS.
  Hypothesis Hkn : kn <= length KS.

  Fixpoint chunk_out (l : list (nat * nat)) (data : list byte) : list byte :=
    match l with
    | [] => []
    | (n, fno) :: l' => G fno (firstn n data) ++ chunk_out l' (skipn n data)
    end.
  Fixpoint total (l : list (nat * nat)) : nat := match l with [] => 0 | (n, _) :: l' => n + total l' end.
  Definition contract (l : list (nat * nat)) : Prop :=
    forall n fno, In (n, fno) l -> forall x : list byte, length x = n ->
      cB fno (concat (bitsB x) ++ concat (firstn kn KS)) = concat (bitsB (G fno x)) /\ length (G fno x) = n.

  Lemma chunk_out_length : forall l data, contract l -> total l <= length data -> length (chunk_out l data) = total l.
  Proof.
    induction l as [|[n fno] l IH]; intros data Hc Ht; [reflexivity|]. cbn [chunk_out total] in *.
    destruct (Hc n fno (or_introl eq_refl) (firstn n data)) as [_ Hl]; [rewrite firstn_length; lia|].
    rewrite app_length, Hl, IH; [reflexivity | intros n' f' Hin; apply Hc; right; exact Hin | rewrite skipn_length; lia].
  Qed.

  Notation MEM O := ((O : list (list bool)) :: bitsB inp :: EO :: KS :: rest).

  Theorem chunks_exec : forall l pos O, contract l -> pos + total l <= length inp -> length O = length inp ->
    execB cB (chunk_calls kn l pos) (MEM O, []) = (MEM (spl O pos (bitsB (chunk_out l (skipn pos inp)))), []).
  Proof.
    induction l as [|[n fno] l IH]; intros pos O Hc Ht HO.
    - cbn [chunk_calls chunk_out map]. rewrite splice_nil. reflexivity.
    - cbn [chunk_calls chunk_out total] in *.
      assert (Hc' : contract l) by (intros n' f' Hin; apply Hc; right; exact Hin).
      destruct (Hc n fno (or_introl eq_refl) (firstn n (skipn pos inp))) as [Hcb Hl]; [rewrite firstn_length, skipn_length; lia|].
      unfold pcall at 1.
      rewrite (exec_call_store cB _ _ _ _ _ _ _ (G fno (firstn n (skipn pos inp))) _ Hl); cbn [nth set_nth map concat evalB eval].
      + rewrite IH; [ | exact Hc' | lia | rewrite splice_length; [exact HO | rewrite bitsB_length, Hl; lia]].
        rewrite <- splice_bits_app, Hl, skipn_add; [reflexivity|].
        rewrite Hl, chunk_out_length; [lia | exact Hc' | rewrite !skipn_length; lia].
      + lia.
      + rewrite app_nil_r, !load_slice; cbn [nth]; try apply bits_len8; try exact HKS8; try (rewrite bitsB_length; lia); try lia.
        rewrite slice_bits. exact Hcb.
  Qed.
End Chunks.

Print Assumptions ppar_final.
Print Assumptions chunks_exec.

Lemma total_app : forall l1 l2, total (l1 ++ l2) = total l1 + total l2.
Proof. induction l1 as [|[n f] l1 IH]; intros l2; [reflexivity|]. cbn [app total]. rewrite IH. apply Nat.add_assoc. Qed.
Lemma total_repeat : forall n f k, total (repeat (n, f) k) = k * n.
Proof. intros n f k. induction k as [|k IH]; [reflexivity|]. cbn [repeat total]. rewrite IH. reflexivity. Qed.

Lemma groups_le : forall (has_vt : bool) psize size, 0 < psize -> (if has_vt then size / psize else 0) * psize <= size.
Proof. intros [|] psize size H; [rewrite Nat.mul_comm; apply Nat.mul_div_le; lia | apply Nat.le_0_l]. Qed.

Lemma in_par_chunks : forall has_vt psize bs fvec fblk size n f,
  In (n, f) (par_chunks has_vt psize bs fvec fblk size) -> (n, f) = (psize, fvec) \/ (n, f) = (bs, fblk).
Proof. intros has_vt psize bs fvec fblk size n f H. apply in_app_or in H. destruct H as [H|H]; apply repeat_spec in H; auto. Qed.

(* chunk_out with a second data argument that advances in step with the first (the tweaks of WholeParM.v) *)
Section ChunkOutT.
  Variable G : nat -> list byte -> list byte -> list byte.
  Fixpoint chunk_outT (l : list (nat * nat)) (tws data : list byte) : list byte :=
    match l with
    | [] => []
    | (n, fno) :: l' => G fno (firstn n tws) (firstn n data) ++ chunk_outT l' (skipn n tws) (skipn n data)
    end.
End ChunkOutT.

(* grouping does not matter: the chunks of a parallel request, under the contracts, are vec_batch (block i under tweak i) *)
Section ParBlocksT.
  Variable E : list byte -> list byte -> list byte.           (* tweak -> block -> block *)
  Variables (bs psize fvec fblk : nat).
  Hypothesis Hbs : 0 < bs.
  Hypothesis Hps : 0 < psize.
  Hypothesis Hpm : psize mod bs = 0.
  Hypothesis Hne : fvec <> fblk.
  Definition GparT (f : nat) (t x : list byte) : list byte :=
    if Nat.eqb f fvec then vec_batch bs E t x else E t x.
  Notation cout := (chunk_outT GparT).

  (* any list of groups under the vector function and of single blocks under the block function *)
  Lemma chunk_outT_batch : forall l tws data,
    (forall n f, In (n, f) l -> (n, f) = (psize, fvec) \/ (n, f) = (bs, fblk)) ->
    total l <= length data -> length tws = length data ->
    cout l tws data = vec_batch bs E (firstn (total l) tws) (firstn (total l) data).
  Proof.
    destruct (mod0_mult _ _ Hbs Hpm) as (p & Hp).
    induction l as [|[n f] l IH]; intros tws data Hin Ht Hlen; [reflexivity|]. cbn [chunk_outT total] in *.
    rewrite IH, !firstn_add by ((intros n' f' H'; apply Hin; right; exact H') || (rewrite !skipn_length; clear - Ht Hlen; lia)).
    assert (Hn : exists q, n = q * bs /\ GparT f (firstn n tws) (firstn n data) = vec_batch bs E (firstn n tws) (firstn n data)).
    { destruct (Hin n f (or_introl eq_refl)) as [[= -> ->]|[= -> ->]]; unfold GparT.
      - exists p. rewrite Nat.eqb_refl. auto.
      - exists 1. split; [lia|]. rewrite (proj2 (Nat.eqb_neq fblk fvec)) by congruence.
        unfold vec_batch. rewrite !blocks_single by (assumption || (rewrite firstn_length; clear - Ht Hlen; lia)). symmetry. apply app_nil_r. }
    destruct Hn as (q & Hq & ->). symmetry. apply (vec_batch_app bs E Hbs q); rewrite firstn_length; clear - Ht Hlen Hq; lia.
  Qed.

  Lemma total_par_chunks : forall has_vt size, size mod bs = 0 -> total (par_chunks has_vt psize bs fvec fblk size) = size.
  Proof.
    intros has_vt size Hm. unfold par_chunks. cbv zeta. rewrite total_app, !total_repeat.
    destruct (mod0_mult _ _ Hbs Hpm) as (p & Hp). destruct (mod0_mult _ _ Hbs Hm) as (k & Hk).
    pose proof (groups_le has_vt psize size Hps) as Hnv. set (nv := if has_vt then size / psize else 0) in *.
    rewrite Hk, Hp, Nat.mul_assoc, <- Nat.mul_sub_distr_r, Nat.div_mul in * by (clear - Hbs; lia). clear - Hnv Hbs. nia.
  Qed.

  Lemma par_chunk_outT_blocks : forall has_vt (tws inp : list byte), length inp mod bs = 0 -> length tws = length inp ->
    cout (par_chunks has_vt psize bs fvec fblk (length inp)) tws inp = vec_batch bs E tws inp.
  Proof.
    intros has_vt tws inp Hm Hlen.
    rewrite chunk_outT_batch, (total_par_chunks has_vt _ Hm), firstn_all, <- Hlen, firstn_all
      by (apply in_par_chunks || rewrite ?(total_par_chunks has_vt _ Hm); auto).
    reflexivity.
  Qed.
End ParBlocksT.

(* without tweaks: E block by block *)
Section ParBlocks.
  Variable E : list byte -> list byte.
  Variables (bs psize fvec fblk : nat).
  Hypothesis Hbs : 0 < bs.
  Hypothesis Hps : 0 < psize.
  Hypothesis Hpm : psize mod bs = 0.
  Hypothesis Hne : fvec <> fblk.
  Definition Gpar (f : nat) (x : list byte) : list byte :=
    if Nat.eqb f fvec then concat (map E (blocks bs x)) else E x.
  Notation cout := (chunk_out Gpar).

  Lemma chunk_out_diag : forall l data, cout l data = chunk_outT (GparT (fun _ x => E x) bs fvec) l data data.
  Proof.
    induction l as [|[n f] l IH]; intros data; [reflexivity|].
    cbn [chunk_out chunk_outT]. rewrite IH. unfold Gpar, GparT. rewrite vec_batch_same. reflexivity.
  Qed.

  Theorem par_chunk_out_blocks : forall has_vt (inp : list byte), length inp mod bs = 0 ->
    cout (par_chunks has_vt psize bs fvec fblk (length inp)) inp = concat (map E (blocks bs inp)).
  Proof.
    intros has_vt inp Hm. rewrite chunk_out_diag.
    rewrite (par_chunk_outT_blocks _ bs psize fvec fblk Hbs Hps Hpm Hne has_vt inp inp Hm eq_refl). apply vec_batch_same.
  Qed.
End ParBlocks.


Theorem ppar_model : forall fields code fuel pl sh pl' sh' c t kn has_vt psize bs fvec fblk size (rsz : list nat),
  fields_okb fields = true ->
  flat fields fuel pl sh code = Some (pl', sh', c, t) ->
  check_proc (size :: size :: rsz) c (pspec kn poly has_vt psize bs fvec fblk size) = true ->
  forall (cB : nat -> list bool -> list bool) (E : list byte -> list byte) (out inp : list byte)
         (EO KS : list (list bool)) (rest : mem bool),
  0 < bs -> 0 < psize -> psize mod bs = 0 -> size mod bs = 0 -> fvec <> fblk -> kn <= length KS -> bytes8 KS ->
  length out = size -> length inp = size ->
  (forall blk, length blk = bs -> length (E blk) = bs) ->
  (forall blk, length blk = bs -> cB fblk (concat (bitsB blk) ++ concat (firstn kn KS)) = concat (bitsB (E blk))) ->
  (forall grp, length grp = psize ->
     cB fvec (concat (bitsB grp) ++ concat (firstn kn KS)) = concat (bitsB (concat (map E (blocks bs grp))))) ->
  let m0 : mem bool := bitsB out :: bitsB inp :: EO :: KS :: rest in
  shaped (size :: size :: rsz) m0 -> SIRProofs.Inv fields sh m0 ->
  exists st', interp fields cB fuel pl (m0, []) code = Some (pl', st', t)
    /\ fst st' = bitsB (concat (map E (blocks bs inp))) :: bitsB inp :: EO :: KS :: rest.
Proof.
  intros fields code fuel pl sh pl' sh' c t kn has_vt psize bs fvec fblk size rsz Hf Hfl Hk cB E out inp EO KS rest
         Hbs Hps Hpm Hsm Hne Hkn HKS8 Ho Hi HE Hcblk Hcvec m0 Hm HI.
  destruct (ppar_final fields code fuel pl sh pl' sh' c t _ kn has_vt psize bs fvec fblk size Hf Hfl Hk cB m0 Hm HI) as [Hint Hsem].
  exists (execB cB c (m0, [])). split; [exact Hint|]. rewrite Hsem. unfold par_calls, m0.
  pose proof (blocks_map_length bs E Hbs HE) as HElen. destruct Hi.
  rewrite (chunks_exec kn cB (Gpar E bs fvec) EO KS rest inp HKS8 Hkn).
  - cbn [fst skipn]. f_equal.
    rewrite (par_chunk_out_blocks E bs psize fvec fblk Hbs Hps Hpm Hne has_vt inp Hsm).
    apply splice_whole. rewrite !bitsB_length, (HElen inp Hsm), Ho. reflexivity.
  - intros n fno Hin x Hx. destruct (in_par_chunks _ _ _ _ _ _ _ _ Hin) as [[= -> ->]|[= -> ->]]; unfold Gpar.
    + rewrite Nat.eqb_refl. split; [apply Hcvec; exact Hx|]. rewrite HElen; [exact Hx | rewrite Hx; exact Hpm].
    + rewrite (proj2 (Nat.eqb_neq fblk fvec)) by congruence. split; [apply Hcblk; exact Hx | apply HE; exact Hx].
  - rewrite (total_par_chunks bs psize fvec fblk Hbs Hps Hpm has_vt _ Hsm). apply le_n.
  - rewrite bitsB_length. exact Ho.
Qed.
Print Assumptions par_chunk_out_blocks.
Print Assumptions ppar_model.
