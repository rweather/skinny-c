(* ProofsArduino.v — C19: the Arduino port (ModelArduino.v) against the model of the C library (ModelCipher.v,
   ModelCtr.v). *)
From Coq Require Import List NArith Arith Lia.
From Skinny Require Import ListFacts Bits SpecSkinny ModelCipher ModelCtr ModelArduino ProofsSkinny
  ProofsCtr.
Import ListNotations.

(* a tweak request as the Arduino API sees it: (tweak pointer, len) *)
Definition ard_treq : Type := (buf * nat)%type.
(* the tweak in force after a history of setTweak calls on a freshly keyed object: the last request
   of exactly one block counts (NULL = zero), everything else is rejected *)
Definition ard_latest (bs : nat) (qs : list ard_treq) : list byte :=
  fold_left (fun t q => if Nat.eqb (snd q) bs
                        then match fst q with Some b => pad_to bs b | None => zeros bs end
                        else t) qs (zeros bs).
Definition c_req (q : ard_treq) : tweak_req := (fst q, N.of_nat (snd q)).

Lemma latest_tweak_ard bs qs : 0 < bs ->
  latest_tweak bs (zeros bs) (map c_req (filter (fun q => Nat.eqb (snd q) bs) qs)) = ard_latest bs qs.
Proof.
  intros Hbs. unfold ard_latest. generalize (zeros bs) at 1 3.
  induction qs as [|[tw len] qs IH]; intros cur; [reflexivity|].
  cbn [filter fold_left snd fst]. destruct (Nat.eqb_spec len bs) as [->|Hne].
  - cbn [map]. unfold latest_tweak in *. cbn [fold_left]. rewrite IH. f_equal.
    rewrite tweak_valid_size_ok. unfold tweak_bytes, c_req. cbn [fst snd].
    rewrite size_ok_true by lia. destruct tw as [b|]; [|reflexivity].
    rewrite Nat2N.id. apply pad_to_firstn.
  - apply IH.
Qed.

Section ArdGen.
  Variable C : Type.
  Variable cx : C -> C -> C.
  Variable cnib : bool -> bool -> bool -> bool -> C.
  Variables sb sbi l2 l3 : C -> C.
  Variable bs : nat.
  Variable load : list byte -> state C.
  Variable store : state C -> list byte.
  Variable czero : C.
  Variable rounds_for : nat -> nat.

  Hypothesis cx0 : forall a, cx a czero = a.
  Hypothesis load_zeros : load (zeros bs) = zstate C czero.
  Hypothesis bs_pos : 0 < bs.

  Notation sloop := (sched_loop C).
  Notation half := (half C).
  Notation skinner := (set_key_inner C cx cnib l2 l3 bs load czero rounds_for).
  Notation skey := (set_key C cx cnib l2 l3 bs load czero rounds_for).
  Notation stkey := (set_tweaked_key C cx cnib l2 l3 bs load czero rounds_for).
  Notation stweak := (set_tweak C cx bs load).
  Notation aset := (ard_set_key C cx cnib l2 l3 bs load czero).
  Notation asett := (ard_set_key_tweaked C cx cnib l2 l3 bs load czero).
  Notation atweak := (ard_set_tweak C cx bs load).
  Notation ard := (ard C).

  Lemma sloop_firstn n upd next : forall tk r s,
    firstn n (sloop n upd next tk r s) = sloop n upd next tk r (firstn n s).
  Proof.
    induction n as [|n IH]; intros tk r [|e s]; simpl; auto. f_equal. apply IH.
  Qed.
  Lemma sloop_overwrite upd next : (forall e e' k r, upd e k r = upd e' k r) ->
    forall n tk r s s', length s = n -> length s' = n ->
    sloop n upd next tk r s = sloop n upd next tk r s'.
  Proof.
    intros Hu. induction n as [|n IH]; intros tk r [|e s] [|e' s'] H H'; simpl in H, H' |- *;
      try discriminate; auto.
    f_equal; [apply Hu|apply IH; [now injection H|now injection H']].
  Qed.
  Lemma set_tk1_cut n key tw s s' : n <= length s -> length s' = n ->
    firstn n (set_tk1 C cx cnib bs load czero n key tw s)
    = set_tk1 C cx cnib bs load czero n key tw s'.
  Proof.
    intros H H'. unfold set_tk1. rewrite sloop_firstn.
    apply sloop_overwrite; auto. rewrite firstn_length. lia.
  Qed.
  Lemma xor_tk1_zeros n s : xor_tk1 C cx bs load n (zeros bs) s = s.
  Proof.
    unfold xor_tk1. rewrite pad_to_id by apply zeros_length. rewrite load_zeros.
    apply (zero_pass C cx czero cx0). reflexivity.
  Qed.

  Lemma ard_plain_gen z (a : ard) ks key :
    In z [1; 2; 3] -> length key = z * bs -> length (a_sched C a) = rounds_for z ->
    rounds_for z <= length (ks_sched C ks) ->
    fst (aset z a key) = true
    /\ used C (skinner ks key None) = a_sched C (snd (aset z a key)).
  Proof.
    intros Hz Hl Ha Hn. unfold ard_set_key, r_of.
    rewrite (proj2 (Nat.eqb_eq _ _) Hl). split; [reflexivity|]. rewrite Ha.
    destruct Hz as [<-|[<-|[<-|[]]]]; cbn [Nat.leb snd a_sched with_sched].
    - rewrite set_key_inner_None1, used_mk_ks by lia.
      rewrite (firstn_all2 (n := bs) key) by lia.
      apply set_tk1_cut; assumption.
    - rewrite set_key_inner_None2, used_mk_ks by lia.
      unfold set_tk2. rewrite pad_to_firstn, sloop_firstn. f_equal. apply set_tk1_cut; assumption.
    - rewrite set_key_inner_None3, used_mk_ks by lia.
      unfold set_tk3, set_tk2. rewrite !pad_to_firstn, !sloop_firstn. do 2 f_equal.
      apply set_tk1_cut; assumption.
  Qed.

  Lemma ard_set_key_reject z (a : ard) key : length key <> z * bs -> aset z a key = (false, a).
  Proof.
    intros H%Nat.eqb_neq. unfold ard_set_key. rewrite H. reflexivity.
  Qed.

  Lemma ard_crypt_used (a : ard) (ks : keysched C) : used C ks = a_sched C a ->
    forall blk,
      ard_encrypt C cx cnib sb load store a blk = ecb_encrypt C cx cnib sb load store ks blk
      /\ ard_decrypt C cx cnib sbi load store a blk = ecb_decrypt C cx cnib sbi load store ks blk.
  Proof.
    intros H blk. unfold ard_encrypt, ard_decrypt, ecb_encrypt, ecb_decrypt. rewrite H.
    split; reflexivity.
  Qed.

  Theorem ard_plain_equiv_gen z (a : ard) ks key :
    In z [1; 2; 3] -> length key = z * bs -> length (a_sched C a) = rounds_for z ->
    rounds_for z <= length (ks_sched C ks) ->
    fst (aset z a key) = true
    /\ fst (skey ks (Some key) (N.of_nat (z * bs))) = 1%N
    /\ forall blk,
         ard_encrypt C cx cnib sb load store (snd (aset z a key)) blk
         = ecb_encrypt C cx cnib sb load store (snd (skey ks (Some key) (N.of_nat (z * bs)))) blk
         /\ ard_decrypt C cx cnib sbi load store (snd (aset z a key)) blk
            = ecb_decrypt C cx cnib sbi load store (snd (skey ks (Some key) (N.of_nat (z * bs)))) blk.
  Proof.
    intros Hz Hl Ha Hn.
    rewrite (set_key_exact C cx cnib l2 l3 bs load czero rounds_for bs_pos z (z * bs) ks key Hz
               eq_refl Hl).
    destruct (ard_plain_gen z a ks key Hz Hl Ha Hn) as [H1 H2].
    split; [exact H1|]. split; [reflexivity|]. cbn [snd]. now apply ard_crypt_used.
  Qed.

  (* tweakable classes: the simulation relation between the two objects *)
  Definition trel (a : ard) (t : tkeysched C) : Prop :=
    used C (tk_ks C t) = a_sched C a
    /\ tk_tweak C t = a_tweak C a
    /\ N.to_nat (ks_rounds C (tk_ks C t)) = length (a_sched C a).

  Lemma trel_init zk (a : ard) (ks : keysched C) key :
    In zk [1; 2] -> length key = zk * bs -> length (a_sched C a) = rounds_for (S zk) ->
    rounds_for (S zk) <= length (ks_sched C ks) ->
    fst (asett zk a key) = true
    /\ trel (snd (asett zk a key))
            {| tk_ks := skinner ks key (Some (zeros bs)); tk_tweak := zeros bs |}.
  Proof.
    intros Hz Hl Ha Hn. unfold ard_set_key_tweaked, trel, r_of.
    rewrite (proj2 (Nat.eqb_eq _ _) Hl). split; [reflexivity|]. rewrite Ha.
    destruct Hz as [<-|[<-|[]]]; cbn [Nat.leb snd a_sched a_tweak tk_ks tk_tweak].
    - rewrite set_key_inner_Some1, used_mk_ks by lia. cbn [mk_ks ks_rounds]. rewrite Nat2N.id.
      split; [|split; [reflexivity|]].
      + unfold set_tk2. rewrite pad_to_firstn, sloop_firstn. f_equal. apply set_tk1_cut; assumption.
      + unfold set_tk2, set_tk1. now rewrite !sloop_length.
    - rewrite set_key_inner_Some2, used_mk_ks by lia. cbn [mk_ks ks_rounds]. rewrite Nat2N.id.
      split; [|split; [reflexivity|]].
      + unfold set_tk3, set_tk2. rewrite !pad_to_firstn, !sloop_firstn. do 2 f_equal.
        apply set_tk1_cut; assumption.
      + unfold set_tk3, set_tk2, set_tk1. now rewrite !sloop_length.
  Qed.

  Lemma trel_step (a : ard) t tw : trel a t ->
    trel (snd (atweak a tw bs)) (snd (stweak t tw (N.of_nat bs))).
  Proof.
    intros (Hu & Ht & Hr). unfold ard_set_tweak, set_tweak, r_of, trel, used in *.
    rewrite Nat.eqb_refl, size_ok_true, Nat2N.id by lia.
    (* for NULL the C code xors the zero tweak in, the C++ code leaves the pass out *)
    destruct tw as [b|]; cbn [snd tk_ks tk_tweak ks_rounds ks_sched a_sched a_tweak];
      rewrite ?pad_to_firstn, ?xor_tk1_zeros; unfold xor_tk1; rewrite !sloop_firstn, !sloop_length, Hu, Ht, Hr; auto.
  Qed.
  Lemma ard_set_tweak_reject (a : ard) tw len : len <> bs -> atweak a tw len = (false, a).
  Proof.
    intros H%Nat.eqb_neq. unfold ard_set_tweak. rewrite H. reflexivity.
  Qed.

  Lemma trel_fold : forall (qs : list ard_treq) (a : ard) t, trel a t ->
    trel (fold_left (fun x q => snd (atweak x (fst q) (snd q))) qs a)
         (fold_left (fun x q => snd (stweak x (fst q) (N.of_nat (snd q))))
                    (filter (fun q => Nat.eqb (snd q) bs) qs) t).
  Proof.
    induction qs as [|[tw len] qs IH]; intros a t H; [exact H|].
    cbn [filter fold_left fst snd]. destruct (Nat.eqb_spec len bs) as [->|Hne].
    - cbn [fold_left fst snd]. apply IH. now apply trel_step.
    - rewrite ard_set_tweak_reject by exact Hne. cbn [snd]. now apply IH.
  Qed.

  Theorem ard_tweaked_equiv_gen zk (a : ard) (t0 : tkeysched C) key (qs : list ard_treq) :
    In zk [1; 2] -> length key = zk * bs -> length (a_sched C a) = rounds_for (S zk) ->
    rounds_for (S zk) <= length (ks_sched C (tk_ks C t0)) ->
    let a1 := snd (asett zk a key) in
    let a2 := fold_left (fun x q => snd (atweak x (fst q) (snd q))) qs a1 in
    let c1 := snd (stkey t0 (Some key) (N.of_nat (zk * bs))) in
    let c2 := fold_left (fun x q => snd (stweak x (fst q) (N.of_nat (snd q))))
                        (filter (fun q => Nat.eqb (snd q) bs) qs) c1 in
    fst (asett zk a key) = true
    /\ forall blk,
         ard_encrypt C cx cnib sb load store a2 blk
         = ecb_encrypt C cx cnib sb load store (tk_ks C c2) blk
         /\ ard_decrypt C cx cnib sbi load store a2 blk
            = ecb_decrypt C cx cnib sbi load store (tk_ks C c2) blk.
  Proof.
    intros Hz Hl Ha Hn a1 a2 c1 c2.
    destruct (trel_init zk a (tk_ks C t0) key Hz Hl Ha Hn) as [H1 H2].
    split; [exact H1|]. apply ard_crypt_used. subst a2 c2 a1 c1.
    rewrite (set_tweaked_key_exact C cx cnib l2 l3 bs load czero rounds_for bs_pos zk (zk * bs)
               t0 key Hz eq_refl Hl).
    cbn [snd]. apply trel_fold, H2.
  Qed.

  Section History.
    Hypothesis cxA : forall a b c, cx (cx a b) c = cx a (cx b c).
    Hypothesis cxC : forall a b, cx a b = cx b a.
    Hypothesis cxN : forall a, cx a a = czero.
    Hypothesis l3_0 : l3 czero = czero.

    (* the Arduino result is the specification under the key and the latest valid tweak
       (NULL = zero) *)
    Theorem ard_tweak_history_gen zk (a : ard) key (qs : list ard_treq) blk :
      In zk [1; 2] -> length key = zk * bs -> length (a_sched C a) = rounds_for (S zk) ->
      let a2 := fold_left (fun x q => snd (atweak x (fst q) (snd q))) qs (snd (asett zk a key)) in
      let T := load (ard_latest bs qs) in
      let k1 := tkz C bs load czero zk 0 key in
      let k2 := tkz C bs load czero zk 1 key in
      ard_encrypt C cx cnib sb load store a2 blk
      = store (encrypt C cx cnib sb l2 l3 true (rounds_for (S zk)) T k1 k2 (load blk))
      /\ ard_decrypt C cx cnib sbi load store a2 blk
         = store (decrypt C cx cnib sbi l2 l3 true (rounds_for (S zk)) T k1 k2 (load blk)).
    Proof.
      intros Hz Hl Ha a2 T k1 k2.
      (* the C object to compare with: any tweakable schedule with room for the rounds *)
      set (t0 := {| tk_ks := {| ks_rounds := 0; ks_sched := a_sched C a |}; tk_tweak := zeros bs |}).
      assert (Hn : rounds_for (S zk) <= length (ks_sched C (tk_ks C t0)))
        by (rewrite <- Ha; apply le_n).
      destruct (ard_tweaked_equiv_gen zk a t0 key qs Hz Hl Ha Hn) as [_ HA].
      pose proof (c04_gen C cx cnib sb sbi l2 l3 bs load store czero rounds_for cxA cxC cxN cx0
                    l3_0 bs_pos _ zk Hn t0 key (map c_req (filter (fun q => Nat.eqb (snd q) bs) qs))
                    Hz (eq_trans Hl (Nat.mul_comm _ _)) eq_refl) as HC.
      cbv zeta in HC. destruct HC as (Hret & Htweak & Hrounds & Hcrypt & Hnext).
      rewrite (Nat.mul_comm bs zk), fold_left_map_gen, (latest_tweak_ard bs qs bs_pos) in Hcrypt.
      destruct (HA blk) as [E1 E2]. destruct (Hcrypt blk) as [F1 F2].
      split; [exact (eq_trans E1 F1)|exact (eq_trans E2 F2)].
    Qed.
  End History.
End ArdGen.

(* plain classes: z in {1,2,3}; the Arduino object owns exactly rounds(z) slots, the C object 56 (40) *)
Theorem a128_plain_equiv : forall (z : nat) (a : ard128) (ks : ks128) (key : list byte),
  In z [1; 2; 3] -> length key = z * 16 -> length (a_sched byte a) = skinny128_rounds z ->
  length (ks_sched byte ks) = 56 ->
  fst (a128_set_key z a key) = true /\
  fst (m128_set_key ks (Some key) (N.of_nat (z * 16))) = 1%N /\
  forall blk,
    a128_encrypt (snd (a128_set_key z a key)) blk
    = m128_encrypt (snd (m128_set_key ks (Some key) (N.of_nat (z * 16)))) blk /\
    a128_decrypt (snd (a128_set_key z a key)) blk
    = m128_decrypt (snd (m128_set_key ks (Some key) (N.of_nat (z * 16)))) blk.
Proof.
  intros z a ks key Hz Hl Ha Hs.
  assert (Hn : m128_rounds z <= length (ks_sched byte ks)) by (rewrite Hs; apply m128_rounds_le).
  exact (ard_plain_equiv_gen byte bxor8 cnib8 S8b S8ib l2_8 l3_8 16 load128 store128 byte0
           m128_rounds (Nat.lt_0_succ _) z a ks key Hz Hl Ha Hn).
Qed.
Theorem a128_set_key_wrong_length : forall z a key,
  length key <> z * 16 -> a128_set_key z a key = (false, a).
Proof. intros z a key H. now apply ard_set_key_reject. Qed.

Theorem a64_plain_equiv : forall (z : nat) (a : ard64) (ks : ks64) (key : list byte),
  In z [1; 2; 3] -> length key = z * 8 -> length (a_sched nib a) = skinny64_rounds z ->
  length (ks_sched nib ks) = 40 ->
  fst (a64_set_key z a key) = true /\
  fst (m64_set_key ks (Some key) (N.of_nat (z * 8))) = 1%N /\
  forall blk,
    a64_encrypt (snd (a64_set_key z a key)) blk
    = m64_encrypt (snd (m64_set_key ks (Some key) (N.of_nat (z * 8)))) blk /\
    a64_decrypt (snd (a64_set_key z a key)) blk
    = m64_decrypt (snd (m64_set_key ks (Some key) (N.of_nat (z * 8)))) blk.
Proof.
  intros z a ks key Hz Hl Ha Hs.
  assert (Hn : m64_rounds z <= length (ks_sched nib ks)) by (rewrite Hs; apply m64_rounds_le).
  exact (ard_plain_equiv_gen nib bxor4 cnib4 S4b S4ib l2_4 l3_4 8 load64 store64 nib0
           m64_rounds (Nat.lt_0_succ _) z a ks key Hz Hl Ha Hn).
Qed.
Theorem a64_set_key_wrong_length : forall z a key,
  length key <> z * 8 -> a64_set_key z a key = (false, a).
Proof. intros z a key H. now apply ard_set_key_reject. Qed.

Theorem a128_tweaked_equiv : forall (zk : nat) (a : ard128) (t0 : tks128) (key : list byte)
    (qs : list ard_treq),
  In zk [1; 2] -> length key = zk * 16 -> length (a_sched byte a) = skinny128_rounds (S zk) ->
  length (ks_sched byte (tk_ks byte t0)) = 56 ->
  let a1 := snd (a128_set_key_tweaked zk a key) in
  let a2 := fold_left (fun x q => snd (a128_set_tweak x (fst q) (snd q))) qs a1 in
  let c1 := snd (m128_set_tweaked_key t0 (Some key) (N.of_nat (zk * 16))) in
  let c2 := fold_left (fun x q => snd (m128_set_tweak x (fst q) (N.of_nat (snd q))))
                      (filter (fun q => Nat.eqb (snd q) 16) qs) c1 in
  fst (a128_set_key_tweaked zk a key) = true /\
  forall blk, a128_encrypt a2 blk = m128_encrypt (tk_ks byte c2) blk
           /\ a128_decrypt a2 blk = m128_decrypt (tk_ks byte c2) blk.
Proof.
  intros zk a t0 key qs Hz Hl Ha Hs.
  assert (Hn : m128_rounds (S zk) <= length (ks_sched byte (tk_ks byte t0)))
    by (rewrite Hs; apply m128_rounds_le).
  exact (ard_tweaked_equiv_gen byte bxor8 cnib8 S8b S8ib l2_8 l3_8 16 load128 store128 byte0
           m128_rounds bxor8_0_r eq_refl (Nat.lt_0_succ _) zk a t0 key qs Hz Hl Ha Hn).
Qed.
Theorem a64_tweaked_equiv : forall (zk : nat) (a : ard64) (t0 : tks64) (key : list byte)
    (qs : list ard_treq),
  In zk [1; 2] -> length key = zk * 8 -> length (a_sched nib a) = skinny64_rounds (S zk) ->
  length (ks_sched nib (tk_ks nib t0)) = 40 ->
  let a1 := snd (a64_set_key_tweaked zk a key) in
  let a2 := fold_left (fun x q => snd (a64_set_tweak x (fst q) (snd q))) qs a1 in
  let c1 := snd (m64_set_tweaked_key t0 (Some key) (N.of_nat (zk * 8))) in
  let c2 := fold_left (fun x q => snd (m64_set_tweak x (fst q) (N.of_nat (snd q))))
                      (filter (fun q => Nat.eqb (snd q) 8) qs) c1 in
  fst (a64_set_key_tweaked zk a key) = true /\
  forall blk, a64_encrypt a2 blk = m64_encrypt (tk_ks nib c2) blk
           /\ a64_decrypt a2 blk = m64_decrypt (tk_ks nib c2) blk.
Proof.
  intros zk a t0 key qs Hz Hl Ha Hs.
  assert (Hn : m64_rounds (S zk) <= length (ks_sched nib (tk_ks nib t0)))
    by (rewrite Hs; apply m64_rounds_le).
  exact (ard_tweaked_equiv_gen nib bxor4 cnib4 S4b S4ib l2_4 l3_4 8 load64 store64 nib0
           m64_rounds bxor4_0_r eq_refl (Nat.lt_0_succ _) zk a t0 key qs Hz Hl Ha Hn).
Qed.
Theorem a128_set_tweak_wrong_length : forall a tw len,
  len <> 16 -> a128_set_tweak a tw len = (false, a).
Proof. intros a tw len H. now apply ard_set_tweak_reject. Qed.
Theorem a64_set_tweak_wrong_length : forall a tw len,
  len <> 8 -> a64_set_tweak a tw len = (false, a).
Proof. intros a tw len H. now apply ard_set_tweak_reject. Qed.

Theorem a128_tweak_history_independent : forall zk a key (qs : list ard_treq) blk,
  In zk [1; 2] -> length key = zk * 16 ->
  length (a_sched byte a) = skinny128_rounds (S zk) -> length blk = 16 ->
  let a2 := fold_left (fun x q => snd (a128_set_tweak x (fst q) (snd q))) qs
                      (snd (a128_set_key_tweaked zk a key)) in
  a128_encrypt a2 blk = skinny128_tweaked_enc zk key (ard_latest 16 qs) blk
  /\ a128_decrypt a2 blk = skinny128_tweaked_dec zk key (ard_latest 16 qs) blk.
Proof.
  intros zk a key qs blk Hz Hl Ha _.
  exact (ard_tweak_history_gen byte bxor8 cnib8 S8b S8ib l2_8 l3_8 16 load128 store128 byte0
           m128_rounds bxor8_0_r eq_refl (Nat.lt_0_succ _) bxor8_assoc bxor8_comm bxor8_nilp
           eq_refl zk a key qs blk Hz Hl Ha).
Qed.
Theorem a64_tweak_history_independent : forall zk a key (qs : list ard_treq) blk,
  In zk [1; 2] -> length key = zk * 8 ->
  length (a_sched nib a) = skinny64_rounds (S zk) -> length blk = 8 ->
  let a2 := fold_left (fun x q => snd (a64_set_tweak x (fst q) (snd q))) qs
                      (snd (a64_set_key_tweaked zk a key)) in
  a64_encrypt a2 blk = skinny64_tweaked_enc zk key (ard_latest 8 qs) blk
  /\ a64_decrypt a2 blk = skinny64_tweaked_dec zk key (ard_latest 8 qs) blk.
Proof.
  intros zk a key qs blk Hz Hl Ha _.
  exact (ard_tweak_history_gen nib bxor4 cnib4 S4b S4ib l2_4 l3_4 8 load64 store64 nib0
           m64_rounds bxor4_0_r eq_refl (Nat.lt_0_succ _) bxor4_assoc bxor4_comm bxor4_nilp
           eq_refl zk a key qs blk Hz Hl Ha).
Qed.

(* Mantis8 = the C library keyed with 8 rounds in encrypt mode *)
Theorem am_equiv : forall m key, length key = 16 ->
  am_set_key m key = (true, snd (mantis_set_key m (Some key) 16 8 1))
  /\ fst (mantis_set_key m (Some key) 16 8 1) = 1%N.
Proof. intros m key H. unfold am_set_key. rewrite H. split; reflexivity. Qed.
Theorem am_set_tweak_equiv : forall m tw,
  am_set_tweak m tw 8 = (true, snd (mantis_set_tweak m tw 8)).
Proof. intros m tw. reflexivity. Qed.
Theorem am_wrong_lengths : forall m key tw len,
  (length key <> 16 -> am_set_key m key = (false, m))
  /\ (len <> 8 -> am_set_tweak m tw len = (false, m)).
Proof.
  intros m key tw len. unfold am_set_key, am_set_tweak. split; intros H%Nat.eqb_neq; rewrite H; reflexivity.
Qed.
(* swapModes and the block function are the C library's by definition *)
Theorem am_swap_crypt_equiv : forall m blk,
  am_swap m = mantis_swap_modes m /\ am_crypt m blk = mantis_crypt m blk.
Proof. intros m blk. split; reflexivity. Qed.

(* narrower counters (Arduino-only extension): only the low 16 - start bytes are incremented,
   modulo 2^(8 (16 - start)) *)
Theorem actr_inc_spec : forall start c, length c = 16 -> start <= 16 ->
  actr_inc start c = firstn start c ++ ctr_add (skipn start c) 1.
Proof. intros start c _ _. unfold actr_inc. now rewrite inc_counter_is_add. Qed.

Section ActrProofs.
  Variable K : Type.
  Variable E : K -> list byte -> list byte.

  (* CTRCommon with the full-width counter against the C library's generic back end with one
     lane of 16 bytes: same key and counter, and either both keystream buffers are used up
     or they hold the same bytes at the same read position *)
  Definition asim (a : actr K) (c : ctr K) : Prop :=
    ac_key K a = c_key c /\ ac_start K a = 0 /\ c_lanes c = [ac_counter K a]
    /\ (16 <= ac_posn K a /\ 16 <= c_off c
        \/ ac_posn K a = c_off c /\ c_off c < 16 /\ ac_state K a = c_ecounter c).

  Lemma actr_loop_nil fuel a : actr_loop K E fuel a [] = (a, []).
  Proof. destruct fuel; reflexivity. Qed.

  (* One iteration of the Arduino loop against ProofsCtr.crypt_step: the two go through the same
     three branches, consume the same piece of the input and xor it with the same bytes *)
  Lemma actr_loop_cons f a c inp : asim a c -> inp <> [] ->
    let '(c1, t, ks) := crypt_step K E 16 1 c inp in
    exists a1, asim a1 c1 /\
      actr_loop K E (S f) a inp
      = let '(a2, rest) := actr_loop K E f a1 (skipn t inp) in (a2, xor_bytes (firstn t inp) ks ++ rest).
  Proof.
    intros (Hk & Hs & Hl & HB) Hne. destruct inp as [|x r]; [congruence|]. clear Hne.
    cbn [actr_loop]. set (inp := x :: r). unfold crypt_step. change (1 * 16) with 16.
    destruct HB as [[Hp Ho]|(Hp & Ho & He)].
    - rewrite (proj2 (Nat.leb_le 16 _) Hp), (proj2 (Nat.leb_le 16 _) Ho).
      cbv zeta. cbn [ac_key ac_counter ac_state ac_posn ac_start Nat.add Nat.sub].
      assert (He : c_ecounter (refill K E 1 c) = E (ac_key K a) (ac_counter K a)).
      { cbn [refill c_ecounter]. rewrite Hl, Hk. apply app_nil_r. }
      assert (Hl1 : c_lanes (refill K E 1 c) = [actr_inc (ac_start K a) (ac_counter K a)]).
      { cbn [refill c_lanes]. rewrite Hl, Hs. reflexivity. }
      rewrite He. destruct (Nat.leb_spec 16 (length inp)) as [Hfull|Hpart].
      + rewrite Nat.min_l by exact Hfull. eexists. split; [|reflexivity].
        repeat (split; [eassumption|]). left. split; [apply le_n|exact Ho].
      + rewrite Nat.min_r by lia. eexists. split; [|reflexivity].
        repeat (split; [eassumption|]). right.
        split; [reflexivity|]. split; [exact Hpart|symmetry; exact He].
    - rewrite <- He, <- Hp. rewrite <- Hp in Ho. rewrite (proj2 (Nat.leb_gt 16 _) Ho).
      cbv zeta. set (n := Nat.min (16 - ac_posn K a) (length inp)).
      eexists. split; [|reflexivity].
      repeat (split; [eassumption|]). cbn [with_off ac_state ac_posn c_off c_ecounter].
      destruct (le_lt_dec 16 (ac_posn K a + n)) as [Hge|Hlt]; [left; now split|right].
      split; [reflexivity|]. split; [exact Hlt|exact He].
  Qed.

  Lemma actr_loop_sim : forall fuel a c inp c' out, asim a c ->
    crypt_loop K E 16 1 fuel c inp = Some (c', out) ->
    snd (actr_loop K E fuel a inp) = out /\ asim (fst (actr_loop K E fuel a inp)) c'.
  Proof.
    induction fuel as [|fuel IH]; intros a c inp c' out HR H.
    - destruct inp; [|discriminate]. injection H as <- <-. now split.
    - destruct inp as [|x r]; [injection H as <- <-; now split|]. set (inp := x :: r) in *.
      assert (Hne : inp <> []) by discriminate.
      rewrite (crypt_loop_cons K E 16 1 fuel c inp Hne) in H.
      pose proof (actr_loop_cons fuel a c inp HR Hne) as St.
      destruct (crypt_step K E 16 1 c inp) as [[c1 t] ks]. destruct St as (a1 & HR1 & ->).
      destruct (crypt_loop K E 16 1 fuel c1 (skipn t inp)) as [[c2 o2]|] eqn:Hrec; [|discriminate].
      injection H as <- <-. destruct (IH _ _ _ _ _ HR1 Hrec) as [Ho2 HR2].
      destruct (actr_loop K E fuel a1 (skipn t inp)) as [a2 rest]. cbn [fst snd] in Ho2, HR2 |- *.
      rewrite Ho2. split; [reflexivity|exact HR2].
  Qed.

  Lemma actr_run_sim : forall calls a c outs0 c' outs, asim a c ->
    run_calls K E 16 1 c calls = Some (c', outs) ->
    snd (fold_left (fun acc d => let '(a, outs) := acc in
                                 let '(a', o) := actr_encrypt K E a d in (a', outs ++ [o]))
                   calls (a, outs0)) = outs0 ++ outs.
  Proof.
    induction calls as [|d rest IH]; intros a c outs0 c' outs HR H; cbn [run_calls fold_left] in *.
    - injection H as <- <-. symmetry. apply app_nil_r.
    - destruct (crypt K E 16 1 c d) as [[c1 o]|] eqn:Hc; [|discriminate].
      destruct (run_calls K E 16 1 c1 rest) as [[c2 os]|] eqn:Hr; [|discriminate].
      injection H as <- <-. destruct (actr_loop_sim _ a _ _ _ _ HR Hc) as [Ho HR1].
      fold (actr_encrypt K E a d) in Ho, HR1. destruct (actr_encrypt K E a d) as [a1 o1].
      cbn [fst snd] in Ho, HR1. rewrite (IH _ _ _ _ _ HR1 Hr), Ho, <- app_assoc. reflexivity.
  Qed.

  Lemma set_iv_asim k iv c : length iv = 16 -> fresh_at K 16 1 c iv -> c_key c = k ->
    asim (snd (actr_set_iv K (actr_new K k) iv)) c.
  Proof.
    intros Hiv (_ & Hl & Ho) Hk. unfold actr_set_iv. rewrite Hiv.
    cbn [Nat.eqb snd actr_new ac_key ac_start].
    split; [symmetry; exact Hk|]. split; [reflexivity|]. split; [rewrite Hl; apply stagger_one|].
    left. rewrite Ho. split; apply le_n.
  Qed.
End ActrProofs.

(* CTR<T> with the default full-width counter: any sequence of encrypt calls gives
   input xor E(iv), E(iv+1), ... *)
Theorem actr_refinement : forall (K : Type) (E : K -> list byte -> list byte) (k : K)
    (iv : list byte) (calls : list (list byte)),
  (forall k blk, length (E k blk) = 16) -> length iv = 16 ->
  let a0 := snd (actr_set_iv K (actr_new K k) iv) in
  let run := fold_left (fun acc d => let '(a, outs) := acc in
                                     let '(a', o) := actr_encrypt K E a d in (a', outs ++ [o]))
                       calls (a0, []) in
  concat (snd run) = ctr_xor 16 (E k) iv 0 (concat calls)
  /\ map (@length byte) (snd run) = map (@length byte) calls.
Proof.
  intros K E k iv calls HE Hiv a0 run.
  set (c := {| c_key := k; c_lanes := stagger 1 iv; c_ecounter := []; c_off := 16 |}).
  assert (Hf : fresh_at K 16 1 c iv) by (repeat split; exact Hiv).
  destruct (ctr_refinement K E 16 1 (Nat.lt_0_succ _) (Nat.lt_0_succ _) HE c iv calls Hf)
    as (c' & outs & Hr & Hx & Hm & _).
  subst run. rewrite (actr_run_sim K E calls a0 c [] c' outs (set_iv_asim K k iv c Hiv Hf eq_refl) Hr).
  split; assumption.
Qed.

(* the same calls through the C library's generic back end (B = 1) from a counter set to iv
   give the same bytes *)
Corollary actr_matches_c_ctr : forall (K : Type) (E : K -> list byte -> list byte) (k : K)
    (iv : list byte) (calls : list (list byte)) (st : ctr K),
  (forall k blk, length (E k blk) = 16) -> length iv = 16 ->
  fresh_at K 16 1 st iv -> c_key st = k ->
  let a0 := snd (actr_set_iv K (actr_new K k) iv) in
  let run := fold_left (fun acc d => let '(a, outs) := acc in
                                     let '(a', o) := actr_encrypt K E a d in (a', outs ++ [o]))
                       calls (a0, []) in
  exists st' outs, run_calls K E 16 1 st calls = Some (st', outs)
    /\ concat outs = concat (snd run)
    /\ map (@length byte) outs = map (@length byte) (snd run).
Proof.
  intros K E k iv calls st HE Hiv Hf Hk a0 run.
  destruct (ctr_refinement K E 16 1 (Nat.lt_0_succ _) (Nat.lt_0_succ _) HE st iv calls Hf)
    as (st' & outs & Hr & _).
  exists st', outs. subst run.
  rewrite (actr_run_sim K E calls a0 st [] st' outs (set_iv_asim K k iv st Hiv Hf Hk) Hr).
  split; [exact Hr|split; reflexivity].
Qed.


Print Assumptions a128_plain_equiv.
Print Assumptions a128_set_key_wrong_length.
Print Assumptions a64_plain_equiv.
Print Assumptions a64_set_key_wrong_length.
Print Assumptions a128_tweaked_equiv.
Print Assumptions a64_tweaked_equiv.
Print Assumptions a128_set_tweak_wrong_length.
Print Assumptions a64_set_tweak_wrong_length.
Print Assumptions a128_tweak_history_independent.
Print Assumptions a64_tweak_history_independent.
Print Assumptions am_equiv.
Print Assumptions am_set_tweak_equiv.
Print Assumptions am_wrong_lengths.
Print Assumptions am_swap_crypt_equiv.
Print Assumptions actr_inc_spec.
Print Assumptions actr_refinement.
Print Assumptions actr_matches_c_ctr.
