(* SpecTests.v — validation of the transcription in SpecSkinny.v/SpecMantis.v
   against published material.  These are tests (finite evaluations). *)
From Coq Require Import List NArith.
From Skinny Require Import Bits SpecSkinny.
Import ListNotations.
Local Open Scope N_scope.

Definition hx (l : list N) : list byte := bytes_of_Ns l.

(* S-box tables from the paper *)
Example S4_table :
  map (fun x => N_of_nib (S4 bool xorb andb true (nib_of_N x)))
      [0;1;2;3;4;5;6;7;8;9;10;11;12;13;14;15]
  = [0xc;0x6;0x9;0x0;0x1;0xa;0x2;0xb;0x3;0x8;0x5;0xd;0x4;0xe;0x7;0xf].
Proof. vm_compute. reflexivity. Qed.
Example S8_table_row0 :
  map (fun x => N_of_byte (S8 bool xorb andb true (byte_of_N x)))
      [0;1;2;3;4;5;6;7;8;9;10;11;12;13;14;15;0xfe;0xff]
  = [0x65;0x4c;0x6a;0x42;0x4b;0x63;0x43;0x6b;0x55;0x75;0x5a;0x7a;0x53;0x73;0x5b;0x7b;0xdf;0xff].
Proof. vm_compute. reflexivity. Qed.

(* test vectors of the SKINNY paper (appendix) *)
Example tv_64_64 :
  Ns_of_bytes (skinny64_enc 1 (hx [0xf5;0x26;0x98;0x26;0xfc;0x68;0x12;0x38])
                 (hx [0x06;0x03;0x4f;0x95;0x77;0x24;0xd1;0x9d]))
  = [0xbb;0x39;0xdf;0xb2;0x42;0x9b;0x8a;0xc7].
Proof. vm_compute. reflexivity. Qed.
Example tv_64_128 :
  Ns_of_bytes (skinny64_enc 2 (hx [0x9e;0xb9;0x36;0x40;0xd0;0x88;0xda;0x63;0x76;0xa3;0x9d;0x1c;0x8b;0xea;0x71;0xe1])
                 (hx [0xcf;0x16;0xcf;0xe8;0xfd;0x0f;0x98;0xaa]))
  = [0x6c;0xed;0xa1;0xf4;0x3d;0xe9;0x2b;0x9e].
Proof. vm_compute. reflexivity. Qed.
Example tv_64_192 :
  Ns_of_bytes (skinny64_enc 3 (hx [0xed;0x00;0xc8;0x5b;0x12;0x0d;0x68;0x61;0x87;0x53;0xe2;0x4b;0xfd;0x90;0x8f;0x60;0xb2;0xdb;0xb4;0x1b;0x42;0x2d;0xfc;0xd0])
                 (hx [0x53;0x0c;0x61;0xd3;0x5e;0x86;0x63;0xc3]))
  = [0xdd;0x2c;0xf1;0xa8;0xf3;0x30;0x30;0x3c].
Proof. vm_compute. reflexivity. Qed.
Example tv_128_128 :
  Ns_of_bytes (skinny128_enc 1 (hx [0x4f;0x55;0xcf;0xb0;0x52;0x0c;0xac;0x52;0xfd;0x92;0xc1;0x5f;0x37;0x07;0x3e;0x93])
                 (hx [0xf2;0x0a;0xdb;0x0e;0xb0;0x8b;0x64;0x8a;0x3b;0x2e;0xee;0xd1;0xf0;0xad;0xda;0x14]))
  = [0x22;0xff;0x30;0xd4;0x98;0xea;0x62;0xd7;0xe4;0x5b;0x47;0x6e;0x33;0x67;0x5b;0x74].
Proof. vm_compute. reflexivity. Qed.
Example tv_128_256 :
  Ns_of_bytes (skinny128_enc 2 (hx [0x00;0x9c;0xec;0x81;0x60;0x5d;0x4a;0xc1;0xd2;0xae;0x9e;0x30;0x85;0xd7;0xa1;0xf3;0x1a;0xc1;0x23;0xeb;0xfc;0x00;0xfd;0xdc;0xf0;0x10;0x46;0xce;0xed;0xdf;0xca;0xb3])
                 (hx [0x3a;0x0c;0x47;0x76;0x7a;0x26;0xa6;0x8d;0xd3;0x82;0xa6;0x95;0xe7;0x02;0x2e;0x25]))
  = [0xb7;0x31;0xd9;0x8a;0x4b;0xde;0x14;0x7a;0x7e;0xd4;0xa6;0xf1;0x6b;0x9b;0x58;0x7f].
Proof. vm_compute. reflexivity. Qed.
Example tv_128_384 :
  Ns_of_bytes (skinny128_enc 3 (hx [0xdf;0x88;0x95;0x48;0xcf;0xc7;0xea;0x52;0xd2;0x96;0x33;0x93;0x01;0x79;0x74;0x49;0xab;0x58;0x8a;0x34;0xa4;0x7f;0x1a;0xb2;0xdf;0xe9;0xc8;0x29;0x3f;0xbe;0xa9;0xa5;0xab;0x1a;0xfa;0xc2;0x61;0x10;0x12;0xcd;0x8c;0xef;0x95;0x26;0x18;0xc3;0xeb;0xe8])
                 (hx [0xa3;0x99;0x4b;0x66;0xad;0x85;0xa3;0x45;0x9f;0x44;0xe9;0x2b;0x08;0xf5;0x50;0xcb]))
  = [0x94;0xec;0xf5;0x89;0xe2;0x01;0x7c;0x60;0x1b;0x38;0xc6;0x34;0x6a;0x10;0xdc;0xfa].
Proof. vm_compute. reflexivity. Qed.
Example tv_128_128_dec :
  Ns_of_bytes (skinny128_dec 1 (hx [0x4f;0x55;0xcf;0xb0;0x52;0x0c;0xac;0x52;0xfd;0x92;0xc1;0x5f;0x37;0x07;0x3e;0x93])
                 (hx [0x22;0xff;0x30;0xd4;0x98;0xea;0x62;0xd7;0xe4;0x5b;0x47;0x6e;0x33;0x67;0x5b;0x74]))
  = [0xf2;0x0a;0xdb;0x0e;0xb0;0x8b;0x64;0x8a;0x3b;0x2e;0xee;0xd1;0xf0;0xad;0xda;0x14].
Proof. vm_compute. reflexivity. Qed.

From Skinny Require Import SpecMantis.
Example Sb0_table :
  map (fun x => N_of_nib (Sb0 bool xorb andb true (nib_of_N x)))
      [0;1;2;3;4;5;6;7;8;9;10;11;12;13;14;15]
  = [0xc;0xa;0xd;0x3;0xe;0xb;0xf;0x7;0x8;0x9;0x1;0x5;0x0;0x2;0x4;0x6].
Proof. vm_compute. reflexivity. Qed.

Definition mkey := hx [0x92;0xf0;0x99;0x52;0xc6;0x25;0xe3;0xe9;0xd7;0xa0;0x60;0xf7;0x14;0xc0;0x29;0x2b].
Definition mtweak := hx [0xba;0x91;0x2e;0x6f;0x10;0x55;0xfe;0xd2].
Example tv_mantis5 :
  Ns_of_bytes (mantis_enc 5 mkey mtweak (hx [0x3b;0x5c;0x77;0xa4;0x92;0x1f;0x97;0x18]))
  = [0xd6;0x52;0x20;0x35;0xc1;0xc0;0xc6;0xc1].
Proof. vm_compute. reflexivity. Qed.
Example tv_mantis6 :
  Ns_of_bytes (mantis_enc 6 mkey mtweak (hx [0xd6;0x52;0x20;0x35;0xc1;0xc0;0xc6;0xc1]))
  = [0x60;0xe4;0x34;0x57;0x31;0x19;0x36;0xfd].
Proof. vm_compute. reflexivity. Qed.
Example tv_mantis7 :
  Ns_of_bytes (mantis_enc 7 mkey mtweak (hx [0x60;0xe4;0x34;0x57;0x31;0x19;0x36;0xfd]))
  = [0x30;0x8e;0x8a;0x07;0xf1;0x68;0xf5;0x17].
Proof. vm_compute. reflexivity. Qed.
Example tv_mantis8 :
  Ns_of_bytes (mantis_enc 8 mkey mtweak (hx [0x30;0x8e;0x8a;0x07;0xf1;0x68;0xf5;0x17]))
  = [0x97;0x1e;0xa0;0x1a;0x86;0xb4;0x10;0xbb].
Proof. vm_compute. reflexivity. Qed.
Example tv_mantis8_dec :
  Ns_of_bytes (mantis_dec 8 mkey mtweak (hx [0x97;0x1e;0xa0;0x1a;0x86;0xb4;0x10;0xbb]))
  = [0x30;0x8e;0x8a;0x07;0xf1;0x68;0xf5;0x17].
Proof. vm_compute. reflexivity. Qed.
