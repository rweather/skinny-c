(* WholeEndToEndT.v — C04 over a HISTORY of calls, all functions as the checks regenerate them from the C source on every run,
   for SKINNY-128 and SKINNY-64:
   skinny*_set_tweaked_key's whole-function specification (w_set_tweaked_key*, tied to the C code by the parts key*_stk_<size>)
   on any prior object, then ANY finite list of valid skinny*_set_tweak calls (w_set_tweak*, parts key*_st_<rounds>_<size>),
   then skinny*_ecb_encrypt's / _decrypt's own translated code on the resulting &tk.ks: the result is the SPECIFICATION's
   tweakable cipher under the key and the LATEST tweak — never an earlier one. *)
From Coq Require Import List NArith Arith Lia.
From Skinny Require Import Bits SpecSkinny IR SIR Anf KernelSpecs SIRCheck WholeSpecs ModelCipher ProofsSkinny
                           WholeBridge WholeKey WholeKeyTweak WholeCompose.
Import ListNotations.

(* One proof for both cell types C.  w and wk stand for w_set_tweak128 / 64 bool xorb false and w_set_tweaked_key128 / 64 bool
   xorb false true; the hypotheses w_model, wk_model and history are the statements of WholeKeyTweak.w_set_tweak128_model,
   w_set_tweaked_key128_model and ProofsSkinny.c04_tweak_history128 (and of their SKINNY-64 twins) over C. *)
Section TweakSteps.
  Variables (C : Type) (cx : C -> C -> C) (bs : nat) (ld : list byte -> state C) (hb : half C -> list (list bool)) (hl ns : nat).
  Variable w : nat -> nat -> bool -> mem bool -> mem bool.
  Hypothesis w_model : forall R tsz (null : bool) (twarg prevtw hdr : list byte) (sched : list (half C)) rest mrest,
    length hdr = hl -> length sched = ns -> length prevtw = bs -> R <= ns -> tsz <= bs ->
    let newtw := if null then zeros bs else pad_to bs (firstn tsz twarg) in
    w R tsz null ((bitsB hdr ++ concat (map hb sched) ++ bitsB prevtw ++ rest) :: bitsB twarg :: mrest)
    = [bitsB hdr ++ concat (map hb (xor_tk1 C cx bs ld R newtw (xor_tk1 C cx bs ld R prevtw sched))) ++ bitsB newtw ++ rest; bitsB twarg].

  Definition imgG (t : tkeysched C) (hdrtail : list byte) (rest : list (list bool)) : list (list bool) :=
    (rbytes (N.to_nat (ks_rounds C (tk_ks C t))) ++ bitsB hdrtail)
      ++ concat (map hb (ks_sched C (tk_ks C t))) ++ bitsB (tk_tweak C t) ++ rest.
  Definition c_set_tweakG (R : nat) (q : tweak_req) (ks : list (list bool)) : list (list bool) :=
    nth 0 (w R (N.to_nat (snd q)) (match fst q with None => true | Some _ => false end)
             [ks; bitsB (match fst q with Some b => b | None => [] end)]) [].
  Definition invG (R : nat) (t : tkeysched C) : Prop :=
    length (ks_sched C (tk_ks C t)) = ns /\ length (tk_tweak C t) = bs /\ N.to_nat (ks_rounds C (tk_ks C t)) = R.
  Notation stw t q := (snd (set_tweak C cx bs ld t (fst q) (snd q))).

  Lemma set_tweak_step : forall R (t : tkeysched C) (q : tweak_req) hdrtail rest,
    tweak_valid bs q = true -> 4 + length hdrtail = hl -> R <= ns -> invG R t ->
    c_set_tweakG R q (imgG t hdrtail rest) = imgG (stw t q) hdrtail rest /\ invG R (stw t q).
  Proof.
    intros R [[rr ss] tw] [b sz] hdrtail rest Hv Hp HR (Hs & Ht & <-). cbn [ks_sched ks_rounds tk_ks tk_tweak fst snd] in *.
    rewrite (set_tweak_valid C cx bs ld _ b sz Hv). cbv zeta. cbn [snd tk_ks tk_tweak ks_rounds ks_sched].
    apply (proj1 (size_ok_iff 1 bs sz)) in Hv. split.
    - unfold c_set_tweakG, imgG. cbn [fst snd ks_sched ks_rounds tk_ks tk_tweak]. rewrite <- bitsB_hdrR.
      pose proof (w_model _ (N.to_nat sz) (match b with None => true | Some _ => false end) (match b with Some b => b | None => [] end)
                    tw (hdrR (N.to_nat rr) hdrtail) ss rest [] (eq_trans (hdrR_length _ hdrtail) Hp) Hs Ht HR ltac:(lia)) as Hm.
      destruct b; exact (f_equal (fun m => nth 0 m []) Hm).
    - unfold invG. cbn [ks_sched ks_rounds tk_ks tk_tweak].
      repeat split; [unfold xor_tk1; rewrite !sloop_length; exact Hs | apply tweak_bytes_length].
  Qed.

  Lemma set_tweak_fold : forall R hdrtail rest (qs : list tweak_req) (t : tkeysched C),
    Forall (fun q => tweak_valid bs q = true) qs -> 4 + length hdrtail = hl -> R <= ns -> invG R t ->
    fold_left (fun ks q => c_set_tweakG R q ks) qs (imgG t hdrtail rest) = imgG (fold_left (fun t q => stw t q) qs t) hdrtail rest
    /\ invG R (fold_left (fun t q => stw t q) qs t).
  Proof.
    intros R hdrtail rest qs. induction qs as [|q qs IH]; intros t Hq Hp HR Hi; [split; [reflexivity | exact Hi]|].
    inversion Hq as [|q' qs' Hv Hqs]; subst q' qs'. cbn [fold_left].
    destruct (set_tweak_step R t q hdrtail rest Hv Hp HR Hi) as [E Hi']. rewrite E. apply IH; assumption.
  Qed.

  Variables (cnib : bool -> bool -> bool -> bool -> C) (l2 l3 : C -> C) (c0 : C) (rounds : nat -> nat) (kn : nat).
  Variable wk : nat -> mem bool -> mem bool.
  Variables (enc dec : keysched C -> list byte -> list byte) (senc sdec : nat -> list byte -> list byte -> list byte -> list byte).
  Notation stk := (set_tweaked_key C cx cnib l2 l3 bs ld c0 rounds).
  Hypothesis hl4 : 4 <= hl.                                         (* hl: bytes of the header, and of a schedule slot *)
  Hypothesis hb_len : forall e, length (hb e) = hl.
  Hypothesis Hkn : hl + ns * hl = kn.
  Hypothesis rounds_le : forall z, rounds z <= ns.
  Hypothesis wk_model : forall (key prevtw hdr : list byte) (sched : list (half C)) r0 rest mrest,
    bs <= length key <= 2 * bs -> length hdr = hl -> length sched = ns -> length prevtw = bs ->
    let res := stk {| tk_ks := {| ks_rounds := r0; ks_sched := sched |}; tk_tweak := prevtw |} (Some key) (N.of_nat (length key)) in
    fst res = 1%N /\
    wk (length key) ((bitsB hdr ++ concat (map hb sched) ++ bitsB prevtw ++ rest) :: bitsB key :: mrest)
    = [ (rbytes (N.to_nat (ks_rounds C (tk_ks C (snd res)))) ++ skipn 4 (bitsB hdr))
          ++ concat (map hb (ks_sched C (tk_ks C (snd res)))) ++ bitsB (tk_tweak C (snd res)) ++ rest;
        bitsB key ].
  Hypothesis history : forall zk (t0 : tkeysched C) (key : list byte) (qs : list tweak_req),
    In zk [1; 2] -> length key = bs * zk -> length (ks_sched C (tk_ks C t0)) = ns ->
    let t1 := snd (stk t0 (Some key) (N.of_nat (bs * zk))) in
    let t2 := fold_left (fun t q => stw t q) qs t1 in
    fst (stk t0 (Some key) (N.of_nat (bs * zk))) = 1%N
    /\ tk_tweak C t2 = latest_tweak bs (zeros bs) qs
    /\ ks_rounds C (tk_ks C t2) = N.of_nat (rounds (S zk))
    /\ (forall blk, length blk = bs ->
          enc (tk_ks C t2) blk = senc zk key (latest_tweak bs (zeros bs) qs) blk
          /\ dec (tk_ks C t2) blk = sdec zk key (latest_tweak bs (zeros bs) qs) blk)
    /\ (forall q, In q qs -> fst (set_tweak C cx bs ld t2 (fst q) (snd q)) = if tweak_valid bs q then 1%N else 0%N).

  (* the object after set_tweaked_key and any history of valid set_tweak calls: its first kn bytes (&tk.ks) are the round
     count, the rest of the old header and a schedule under which the model's cipher is the specification's tweakable
     cipher at the LATEST tweak *)
  Lemma tweak_history_obj : forall zk (key hdr prevtw : list byte) (sched : list (half C)) (rest : list (list bool))
      (mrest : mem bool) (qs : list tweak_req),
    In zk [1; 2] -> length key = bs * zk -> length hdr = hl -> length sched = ns -> length prevtw = bs ->
    Forall (fun q => tweak_valid bs q = true) qs ->
    let R := rounds (S zk) in
    let obj1 := nth 0 (wk (length key) ((bitsB hdr ++ concat (map hb sched) ++ bitsB prevtw ++ rest) :: bitsB key :: mrest)) [] in
    exists tail ss, 4 + length tail = hl /\ length ss = ns
      /\ firstn kn (fold_left (fun ks q => c_set_tweakG R q ks) qs obj1) = imageR _ hb R tail ss
      /\ forall blk, length blk = bs ->
           enc {| ks_rounds := N.of_nat R; ks_sched := ss |} blk = senc zk key (latest_tweak bs (zeros bs) qs) blk
           /\ dec {| ks_rounds := N.of_nat R; ks_sched := ss |} blk = sdec zk key (latest_tweak bs (zeros bs) qs) blk.
  Proof.
    intros zk key hdr prevtw sched rest mrest qs Hz Hk Hh Hs Hp Hqs. cbv zeta.
    set (R := rounds (S zk)).
    assert (Hk' : bs <= length key <= 2 * bs) by (rewrite Hk; clear - Hz; destruct Hz as [<-|[<-|[]]]; lia).
    set (t0 := {| tk_ks := {| ks_rounds := 0%N; ks_sched := sched |}; tk_tweak := prevtw |}).
    destruct (wk_model key prevtw hdr sched 0%N rest mrest Hk' Hh Hs Hp) as [_ HW]. cbv zeta in HW.
    rewrite HW. cbn [nth]. clear HW. rewrite Hk. fold t0.
    set (t1 := snd (stk t0 (Some key) (N.of_nat (bs * zk)))).
    (* t1 meets the invariant: its tweak and round count by the history theorem at the empty history *)
    destruct (history zk t0 key [] Hz Hk Hs) as (_ & Htw1 & Hr1 & _). cbn [fold_left] in Htw1, Hr1. fold t1 R in Htw1, Hr1.
    assert (Hi1 : invG R t1).
    { repeat split; [unfold t1; rewrite set_tweaked_key_sched_length; exact Hs | rewrite Htw1; apply zeros_length | rewrite Hr1; apply Nat2N.id]. }
    assert (Lp : 4 + length (skipn 4 hdr) = hl) by (rewrite skipn_length, Hh, Nat.add_comm; exact (Nat.sub_add 4 hl hl4)).
    rewrite skipn_map. change ((rbytes _ ++ bitsB (skipn 4 hdr)) ++ _) with (imgG t1 (skipn 4 hdr) rest).
    destruct (set_tweak_fold R (skipn 4 hdr) rest qs t1 Hqs Lp (rounds_le _) Hi1) as [-> (Hs2 & _ & Hr2)].
    (* the fourth conjunct of history: the cipher under the final schedule is the specification's at the latest tweak *)
    destruct (history zk t0 key qs Hz Hk Hs) as (_ & _ & _ & Hspec & _). fold t1 in Hspec.
    set (t2 := fold_left (fun t q => stw t q) qs t1) in *.
    exists (skipn 4 hdr), (ks_sched C (tk_ks C t2)). split; [exact Lp|]. split; [exact Hs2|]. split.
    - unfold imgG. rewrite Hr2. exact (imageR_firstn hl hl ns kn _ hb hb_len Hkn R (skipn 4 hdr) _ _ Lp Hs2).
    - rewrite <- Hr2, N2Nat.id, ks_eta. exact Hspec.
  Qed.
End TweakSteps.

Definition imgT (t : tks128) (pad4 : list byte) (rest : list (list bool)) : list (list bool) :=
  (rbytes (N.to_nat (ks_rounds byte (tk_ks byte t))) ++ bitsB pad4)
    ++ concat (map hbT8 (ks_sched byte (tk_ks byte t))) ++ bitsB (tk_tweak byte t) ++ rest.

(* one skinny128_set_tweak(tk, tweak, size) call on the object, as its whole-function specification *)
Definition c_set_tweak128 (R : nat) (q : tweak_req) (ks : list (list bool)) : list (list bool) :=
  nth 0 (w_set_tweak128 bool xorb false R (N.to_nat (snd q)) (match fst q with None => true | Some _ => false end)
           [ks; bitsB (match fst q with Some b => b | None => [] end)]) [].

Definition invT (R : nat) (t : tks128) : Prop :=
  length (ks_sched byte (tk_ks byte t)) = 56 /\ length (tk_tweak byte t) = 16 /\ N.to_nat (ks_rounds byte (tk_ks byte t)) = R.

Lemma c_set_tweak128_fold : forall R pad4 rest (qs : list tweak_req) (t : tks128),
  Forall (fun q => tweak_valid 16 q = true) qs -> length pad4 = 4 -> R <= 56 -> invT R t ->
  fold_left (fun ks q => c_set_tweak128 R q ks) qs (imgT t pad4 rest)
  = imgT (fold_left (fun t q => snd (m128_set_tweak t (fst q) (snd q))) qs t) pad4 rest
  /\ invT R (fold_left (fun t q => snd (m128_set_tweak t (fst q) (snd q))) qs t).
Proof.
  intros R pad4 rest qs t Hq Hp.
  exact (set_tweak_fold byte bxor8 16 load128 hbT8 8 56 (w_set_tweak128 bool xorb false) w_set_tweak128_model R pad4 rest qs t Hq
           (f_equal (Nat.add 4) Hp)).
Qed.

Definition tweak_history_obj128 :=
  tweak_history_obj byte bxor8 16 load128 hbT8 8 56 (w_set_tweak128 bool xorb false) w_set_tweak128_model
    cnib8 l2K8 l3K8 byte0 m128_rounds 456 (w_set_tweaked_key128 bool xorb false true)
    m128_encrypt m128_decrypt skinny128_tweaked_enc skinny128_tweaked_dec
    (Nat.le_add_r 4 4) (KernelHom2.half_bytes128_length bool) eq_refl m128_rounds_le w_set_tweaked_key128_model c04_tweak_history128.

Theorem c_tweak_history_then_encrypt128_spec :
  forall (zk : nat) code fuel pl' sh' c t,                               (* skinny128_ecb_encrypt at the round count of zk+1 *)
  In zk [1; 2] ->
  flat [ksf] fuel [0; 0; 0]%N [(ksf, N.of_nat (skinny128_rounds (S zk)))] code = Some (pl', sh', c, t) ->
  check_block_w callP sizes128 2 8 c (enc_offs 8 8 (skinny128_rounds (S zk)))
    (enc_stepsW poly (k128_subcells poly pxor pand pzero pone) (k128_enc_linear poly pxor pzero pone) (skinny128_rounds (S zk)))
    (enc_stepsW bool (k128_subcells bool xorb andb false true) (k128_enc_linear bool xorb false true) (skinny128_rounds (S zk))) = true ->
  forall (key hdr prevtw out blk st : list byte) (sched : list (half byte)) (rest : list (list bool)) (mrest : mem bool) (qs : list tweak_req),
  length key = 16 * zk -> length hdr = 8 -> length sched = 56 -> length prevtw = 16 ->
  length out = 16 -> length blk = 16 -> length st = 16 ->
  Forall (fun q => tweak_valid 16 q = true) qs ->
  (* the tweakable object after set_tweaked_key and the history qs of set_tweak calls *)
  let obj1 := nth 0 (w_set_tweaked_key128 bool xorb false true (length key)
                       ((bitsB hdr ++ concat (map hbT8 sched) ++ bitsB prevtw ++ rest) :: bitsB key :: mrest)) [] in
  let obj2 := fold_left (fun ks q => c_set_tweak128 (skinny128_rounds (S zk)) q ks) qs obj1 in
  let ksobj := firstn 456 obj2 in                                           (* &tk.ks *)
  exists st', interp [ksf] callB fuel [0; 0; 0]%N (([bitsB out; bitsB blk; ksobj; bitsB st] : mem bool), []) code = Some (pl', st', t)
    /\ nth 0 (fst st') [] = bitsB (skinny128_tweaked_enc zk key (latest_tweak 16 (zeros 16) qs) blk)
    /\ nth 1 (fst st') [] = bitsB blk /\ nth 2 (fst st') [] = ksobj.
Proof.
  intros zk code fuel pl' sh' c t Hz Hflat Hcheck key hdr prevtw out blk st sched rest mrest qs Hk Hh Hs Hp Ho Hb Hst Hqs. cbv zeta.
  destruct (tweak_history_obj128 zk key hdr prevtw sched rest mrest qs Hz Hk Hh Hs Hp Hqs) as (tail & ss & Ht & Hlen & Hobj & Hspec).
  exact (block_on_imageR 16 8 56 _ _ code fuel _ pl' t (fun s => m128_encrypt {| ks_rounds := _; ks_sched := s |})
           (rounds_lt_2_32 _ 56 (m128_rounds_le (S zk)) eq_refl)
           (enc128_final code fuel _ pl' sh' c t (m128_rounds_pos (S zk)) (m128_rounds_le (S zk)) Hflat Hcheck)
           out blk st tail ss _ _ Ho Hb Hst Ht Hlen Hobj (proj1 (Hspec blk Hb))).
Qed.

Definition imgT64 (t : tks64) (hdrtail : list byte) (rest : list (list bool)) : list (list bool) :=
  (rbytes (N.to_nat (ks_rounds nib (tk_ks nib t))) ++ bitsB hdrtail)
    ++ concat (map hbT4 (ks_sched nib (tk_ks nib t))) ++ bitsB (tk_tweak nib t) ++ rest.

(* one skinny64_set_tweak(tk, tweak, size) call on the object, as its whole-function specification *)
Definition c_set_tweak64 (R : nat) (q : tweak_req) (ks : list (list bool)) : list (list bool) :=
  nth 0 (w_set_tweak64 bool xorb false R (N.to_nat (snd q)) (match fst q with None => true | Some _ => false end)
           [ks; bitsB (match fst q with Some b => b | None => [] end)]) [].

Definition invT64 (R : nat) (t : tks64) : Prop :=
  length (ks_sched nib (tk_ks nib t)) = 40 /\ length (tk_tweak nib t) = 8 /\ N.to_nat (ks_rounds nib (tk_ks nib t)) = R.

Lemma c_set_tweak64_fold : forall R hdrtail rest (qs : list tweak_req) (t : tks64),
  Forall (fun q => tweak_valid 8 q = true) qs -> length hdrtail = 0 -> R <= 40 -> invT64 R t ->
  fold_left (fun ks q => c_set_tweak64 R q ks) qs (imgT64 t hdrtail rest)
  = imgT64 (fold_left (fun t q => snd (m64_set_tweak t (fst q) (snd q))) qs t) hdrtail rest
  /\ invT64 R (fold_left (fun t q => snd (m64_set_tweak t (fst q) (snd q))) qs t).
Proof.
  intros R hdrtail rest qs t Hq Hp.
  exact (set_tweak_fold nib bxor4 8 load64 hbT4 4 40 (w_set_tweak64 bool xorb false) w_set_tweak64_model R hdrtail rest qs t Hq
           (f_equal (Nat.add 4) Hp)).
Qed.

Definition tweak_history_obj64 :=
  tweak_history_obj nib bxor4 8 load64 hbT4 4 40 (w_set_tweak64 bool xorb false) w_set_tweak64_model
    cnib4 l2K4 l3K4 nib0 m64_rounds 164 (w_set_tweaked_key64 bool xorb false true)
    m64_encrypt m64_decrypt skinny64_tweaked_enc skinny64_tweaked_dec
    (le_n 4) (KernelHom2.half_bytes64_length bool) eq_refl m64_rounds_le w_set_tweaked_key64_model c04_tweak_history64.

Theorem c_tweak_history_then_encrypt64_spec :
  forall (zk : nat) code fuel pl' sh' c t,                               (* skinny64_ecb_encrypt at the round count of zk+1 *)
  In zk [1; 2] ->
  flat [ksf] fuel [0; 0; 0]%N [(ksf, N.of_nat (skinny64_rounds (S zk)))] code = Some (pl', sh', c, t) ->
  check_block_w callP sizes64 2 4 c (enc_offs 4 4 (skinny64_rounds (S zk)))
    (enc_stepsW poly (k64_subcells poly pxor pand pzero pone) (k64_enc_linear poly pxor pzero pone) (skinny64_rounds (S zk)))
    (enc_stepsW bool (k64_subcells bool xorb andb false true) (k64_enc_linear bool xorb false true) (skinny64_rounds (S zk))) = true ->
  forall (key hdr prevtw out blk st : list byte) (sched : list (half nib)) (rest : list (list bool)) (mrest : mem bool) (qs : list tweak_req),
  length key = 8 * zk -> length hdr = 4 -> length sched = 40 -> length prevtw = 8 ->
  length out = 8 -> length blk = 8 -> length st = 8 ->
  Forall (fun q => tweak_valid 8 q = true) qs ->
  (* the tweakable object after set_tweaked_key and the history qs of set_tweak calls *)
  let obj1 := nth 0 (w_set_tweaked_key64 bool xorb false true (length key)
                       ((bitsB hdr ++ concat (map hbT4 sched) ++ bitsB prevtw ++ rest) :: bitsB key :: mrest)) [] in
  let obj2 := fold_left (fun ks q => c_set_tweak64 (skinny64_rounds (S zk)) q ks) qs obj1 in
  let ksobj := firstn 164 obj2 in                                           (* &tk.ks *)
  exists st', interp [ksf] callB fuel [0; 0; 0]%N (([bitsB out; bitsB blk; ksobj; bitsB st] : mem bool), []) code = Some (pl', st', t)
    /\ nth 0 (fst st') [] = bitsB (skinny64_tweaked_enc zk key (latest_tweak 8 (zeros 8) qs) blk)
    /\ nth 1 (fst st') [] = bitsB blk /\ nth 2 (fst st') [] = ksobj.
Proof.
  intros zk code fuel pl' sh' c t Hz Hflat Hcheck key hdr prevtw out blk st sched rest mrest qs Hk Hh Hs Hp Ho Hb Hst Hqs. cbv zeta.
  destruct (tweak_history_obj64 zk key hdr prevtw sched rest mrest qs Hz Hk Hh Hs Hp Hqs) as (tail & ss & Ht & Hlen & Hobj & Hspec).
  exact (block_on_imageR 8 4 40 _ _ code fuel _ pl' t (fun s => m64_encrypt {| ks_rounds := _; ks_sched := s |})
           (rounds_lt_2_32 _ 40 (m64_rounds_le (S zk)) eq_refl)
           (enc64_final code fuel _ pl' sh' c t (m64_rounds_pos (S zk)) (m64_rounds_le (S zk)) Hflat Hcheck)
           out blk st tail ss _ _ Ho Hb Hst Ht Hlen Hobj (proj1 (Hspec blk Hb))).
Qed.
Print Assumptions c_tweak_history_then_encrypt128_spec.
Print Assumptions c_tweak_history_then_encrypt64_spec.

Theorem c_tweak_history_then_decrypt128_spec :
  forall (zk : nat) code fuel pl' sh' c t,                               (* skinny128_ecb_decrypt at the round count of zk+1 *)
  In zk [1; 2] ->
  flat [ksf] fuel [0; 0; 0]%N [(ksf, N.of_nat (skinny128_rounds (S zk)))] code = Some (pl', sh', c, t) ->
  check_block_w callP sizes128 2 8 c (dec_offs 8 8 (skinny128_rounds (S zk)))
    (dec_stepsW poly (k128_subcells_inv poly pxor pand pzero pone) (k128_dec_linear poly pxor pzero pone) (skinny128_rounds (S zk)))
    (dec_stepsW bool (k128_subcells_inv bool xorb andb false true) (k128_dec_linear bool xorb false true) (skinny128_rounds (S zk))) = true ->
  forall (key hdr prevtw out blk st : list byte) (sched : list (half byte)) (rest : list (list bool)) (mrest : mem bool) (qs : list tweak_req),
  length key = 16 * zk -> length hdr = 8 -> length sched = 56 -> length prevtw = 16 ->
  length out = 16 -> length blk = 16 -> length st = 16 ->
  Forall (fun q => tweak_valid 16 q = true) qs ->
  (* the tweakable object after set_tweaked_key and the history qs of set_tweak calls *)
  let obj1 := nth 0 (w_set_tweaked_key128 bool xorb false true (length key)
                       ((bitsB hdr ++ concat (map hbT8 sched) ++ bitsB prevtw ++ rest) :: bitsB key :: mrest)) [] in
  let obj2 := fold_left (fun ks q => c_set_tweak128 (skinny128_rounds (S zk)) q ks) qs obj1 in
  let ksobj := firstn 456 obj2 in                                           (* &tk.ks *)
  exists st', interp [ksf] callB fuel [0; 0; 0]%N (([bitsB out; bitsB blk; ksobj; bitsB st] : mem bool), []) code = Some (pl', st', t)
    /\ nth 0 (fst st') [] = bitsB (skinny128_tweaked_dec zk key (latest_tweak 16 (zeros 16) qs) blk)
    /\ nth 1 (fst st') [] = bitsB blk /\ nth 2 (fst st') [] = ksobj.
Proof.
  intros zk code fuel pl' sh' c t Hz Hflat Hcheck key hdr prevtw out blk st sched rest mrest qs Hk Hh Hs Hp Ho Hb Hst Hqs. cbv zeta.
  destruct (tweak_history_obj128 zk key hdr prevtw sched rest mrest qs Hz Hk Hh Hs Hp Hqs) as (tail & ss & Ht & Hlen & Hobj & Hspec).
  exact (block_on_imageR 16 8 56 _ _ code fuel _ pl' t (fun s => m128_decrypt {| ks_rounds := _; ks_sched := s |})
           (rounds_lt_2_32 _ 56 (m128_rounds_le (S zk)) eq_refl)
           (dec128_final code fuel _ pl' sh' c t (m128_rounds_pos (S zk)) (m128_rounds_le (S zk)) Hflat Hcheck)
           out blk st tail ss _ _ Ho Hb Hst Ht Hlen Hobj (proj2 (Hspec blk Hb))).
Qed.
Print Assumptions c_tweak_history_then_decrypt128_spec.

Theorem c_tweak_history_then_decrypt64_spec :
  forall (zk : nat) code fuel pl' sh' c t,                               (* skinny64_ecb_decrypt at the round count of zk+1 *)
  In zk [1; 2] ->
  flat [ksf] fuel [0; 0; 0]%N [(ksf, N.of_nat (skinny64_rounds (S zk)))] code = Some (pl', sh', c, t) ->
  check_block_w callP sizes64 2 4 c (dec_offs 4 4 (skinny64_rounds (S zk)))
    (dec_stepsW poly (k64_subcells_inv poly pxor pand pzero pone) (k64_dec_linear poly pxor pzero pone) (skinny64_rounds (S zk)))
    (dec_stepsW bool (k64_subcells_inv bool xorb andb false true) (k64_dec_linear bool xorb false true) (skinny64_rounds (S zk))) = true ->
  forall (key hdr prevtw out blk st : list byte) (sched : list (half nib)) (rest : list (list bool)) (mrest : mem bool) (qs : list tweak_req),
  length key = 8 * zk -> length hdr = 4 -> length sched = 40 -> length prevtw = 8 ->
  length out = 8 -> length blk = 8 -> length st = 8 ->
  Forall (fun q => tweak_valid 8 q = true) qs ->
  (* the tweakable object after set_tweaked_key and the history qs of set_tweak calls *)
  let obj1 := nth 0 (w_set_tweaked_key64 bool xorb false true (length key)
                       ((bitsB hdr ++ concat (map hbT4 sched) ++ bitsB prevtw ++ rest) :: bitsB key :: mrest)) [] in
  let obj2 := fold_left (fun ks q => c_set_tweak64 (skinny64_rounds (S zk)) q ks) qs obj1 in
  let ksobj := firstn 164 obj2 in                                           (* &tk.ks *)
  exists st', interp [ksf] callB fuel [0; 0; 0]%N (([bitsB out; bitsB blk; ksobj; bitsB st] : mem bool), []) code = Some (pl', st', t)
    /\ nth 0 (fst st') [] = bitsB (skinny64_tweaked_dec zk key (latest_tweak 8 (zeros 8) qs) blk)
    /\ nth 1 (fst st') [] = bitsB blk /\ nth 2 (fst st') [] = ksobj.
Proof.
  intros zk code fuel pl' sh' c t Hz Hflat Hcheck key hdr prevtw out blk st sched rest mrest qs Hk Hh Hs Hp Ho Hb Hst Hqs. cbv zeta.
  destruct (tweak_history_obj64 zk key hdr prevtw sched rest mrest qs Hz Hk Hh Hs Hp Hqs) as (tail & ss & Ht & Hlen & Hobj & Hspec).
  exact (block_on_imageR 8 4 40 _ _ code fuel _ pl' t (fun s => m64_decrypt {| ks_rounds := _; ks_sched := s |})
           (rounds_lt_2_32 _ 40 (m64_rounds_le (S zk)) eq_refl)
           (dec64_final code fuel _ pl' sh' c t (m64_rounds_pos (S zk)) (m64_rounds_le (S zk)) Hflat Hcheck)
           out blk st tail ss _ _ Ho Hb Hst Ht Hlen Hobj (proj2 (Hspec blk Hb))).
Qed.
Print Assumptions c_tweak_history_then_decrypt64_spec.
