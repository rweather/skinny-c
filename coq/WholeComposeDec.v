(* WholeComposeDec.v — the decryption side of WholeCompose.v / WholeComposePar.v: the call contract proved for
   skinny128/64_ecb_decrypt's own translated code (dec128/64_contract), and parallel-ECB decryption with the single-block
   callee run by that code (ppar128/64_dec_composed); the vector callee stays a procedure under its contract. *)
From Coq Require Import List NArith Arith.
From Skinny Require Import Bits IR SIR Anf IRCheck KernelSpecs SIRCheck WholeSpecs SIRProofs ModelCipher ModelCtr
                           WholeBridge WholeKey WholeProc WholeCtrModel WholePar WholeCompose WholeComposePar.
From Skinny Require ProofsApiCtr.
Import ListNotations.

Section ComposeDec128.
  Variables (code : list sstmt) (fuel R : nat) (pl' : list N) (sh' : shadow) (c : list stmt) (t : list event).
  Hypothesis HR0 : 0 < R.
  Hypothesis HR : R <= 56.
  Hypothesis Hflat : flat [ksf] fuel [0; 0; 0]%N [(ksf, N.of_nat R)] code = Some (pl', sh', c, t).
  Hypothesis Hcheck : check_block_w callP sizes128 2 8 c (dec_offs 8 8 R)
    (dec_stepsW poly (k128_subcells_inv poly pxor pand pzero pone) (k128_dec_linear poly pxor pzero pone) R)
    (dec_stepsW bool (k128_subcells_inv bool xorb andb false true) (k128_dec_linear bool xorb false true) R) = true.

  Theorem dec128_contract : forall fno (KS : list (list bool)) (hdrtail : list byte) (sched : list (half byte)),
    length hdrtail = 4 -> length sched = 56 ->
    firstn 456 KS = (rbytes R ++ bitsB hdrtail) ++ concat (map (KernelSpecs2.half_bytes128 bool) sched) ->
    forall blk, length blk = 16 ->
    cB_run 16 456 code fuel fno (concat (bitsB blk) ++ concat (firstn 456 KS))
    = concat (bitsB (m128_decrypt {| ks_rounds := N.of_nat R; ks_sched := sched |} blk)).
  Proof.
    intros fno KS hdrtail sched Hh.
    exact (block_contract_gen 16 8 8 56 456 _ _ (KernelHom2.half_bytes128_length bool) hb128_len8 eq_refl code fuel R pl' t
             (fun s => m128_decrypt {| ks_rounds := N.of_nat R; ks_sched := s |}) (rounds_lt_2_32 R 56 HR eq_refl)
             (dec128_final code fuel R pl' sh' c t HR0 HR Hflat Hcheck) fno KS hdrtail sched (f_equal (Nat.add 4) Hh)).
  Qed.
End ComposeDec128.

Section ComposeDec64.
  Variables (code : list sstmt) (fuel R : nat) (pl' : list N) (sh' : shadow) (c : list stmt) (t : list event).
  Hypothesis HR0 : 0 < R.
  Hypothesis HR : R <= 40.
  Hypothesis Hflat : flat [ksf] fuel [0; 0; 0]%N [(ksf, N.of_nat R)] code = Some (pl', sh', c, t).
  Hypothesis Hcheck : check_block_w callP sizes64 2 4 c (dec_offs 4 4 R)
    (dec_stepsW poly (k64_subcells_inv poly pxor pand pzero pone) (k64_dec_linear poly pxor pzero pone) R)
    (dec_stepsW bool (k64_subcells_inv bool xorb andb false true) (k64_dec_linear bool xorb false true) R) = true.

  Theorem dec64_contract : forall fno (KS : list (list bool)) (hdrtail : list byte) (sched : list (half nib)),
    length hdrtail = 0 -> length sched = 40 ->
    firstn 164 KS = (rbytes R ++ bitsB hdrtail) ++ concat (map (KernelSpecs2.half_bytes64 bool) sched) ->
    forall blk, length blk = 8 ->
    cB_run 8 164 code fuel fno (concat (bitsB blk) ++ concat (firstn 164 KS))
    = concat (bitsB (m64_decrypt {| ks_rounds := N.of_nat R; ks_sched := sched |} blk)).
  Proof.
    intros fno KS hdrtail sched Hh.
    exact (block_contract_gen 8 4 4 40 164 _ _ (KernelHom2.half_bytes64_length bool) hb64_len8 eq_refl code fuel R pl' t
             (fun s => m64_decrypt {| ks_rounds := N.of_nat R; ks_sched := s |}) (rounds_lt_2_32 R 40 HR eq_refl)
             (dec64_final code fuel R pl' sh' c t HR0 HR Hflat Hcheck) fno KS hdrtail sched (f_equal (Nat.add 4) Hh)).
  Qed.
End ComposeDec64.

Theorem ppar128_dec_composed :
  forall fields code fuel pl sh pl' sh' c t has_vt psize fvec fblk size (rsz : list nat)     (* skinny128_parallel_ecb_decrypt *)
         code2 fuel2 R pl2 sh2 c2 t2,                                                        (* skinny128_ecb_decrypt *)
  fields_okb fields = true ->
  flat fields fuel pl sh code = Some (pl', sh', c, t) ->
  check_proc (size :: size :: rsz) c (pspec 456 poly has_vt psize 16 fvec fblk size) = true ->
  0 < R -> R <= 56 ->
  flat [ksf] fuel2 [0; 0; 0]%N [(ksf, N.of_nat R)] code2 = Some (pl2, sh2, c2, t2) ->
  check_block_w callP sizes128 2 8 c2 (dec_offs 8 8 R)
    (dec_stepsW poly (k128_subcells_inv poly pxor pand pzero pone) (k128_dec_linear poly pxor pzero pone) R)
    (dec_stepsW bool (k128_subcells_inv bool xorb andb false true) (k128_dec_linear bool xorb false true) R) = true ->
  forall (V : nat -> list bool -> list bool) (out inp hdrtail : list byte) (sched : list (half byte)) (EO back : list (list bool)) (rest : mem bool),
  0 < psize -> psize mod 16 = 0 -> size mod 16 = 0 -> fvec <> fblk ->
  length out = size -> length inp = size -> length hdrtail = 4 -> length sched = 56 -> bytes8 back ->
  let KS := ((rbytes R ++ bitsB hdrtail) ++ concat (map (KernelSpecs2.half_bytes128 bool) sched)) ++ back in
  let E := m128_decrypt {| ks_rounds := N.of_nat R; ks_sched := sched |} in
  (forall grp, length grp = psize ->
     V fvec (concat (bitsB grp) ++ concat (firstn 456 KS)) = concat (bitsB (concat (map E (blocks 16 grp))))) ->
  let m0 : mem bool := bitsB out :: bitsB inp :: EO :: KS :: rest in
  shaped (size :: size :: rsz) m0 -> SIRProofs.Inv fields sh m0 ->
  exists st', interp fields (cB_half fblk (cB_run 16 456 code2 fuel2) V) fuel pl (m0, []) code = Some (pl', st', t)
    /\ fst st' = bitsB (concat (map E (blocks 16 inp))) :: bitsB inp :: EO :: KS :: rest.
Proof.
  intros fields code fuel pl sh pl' sh' c t has_vt psize fvec fblk size rsz code2 fuel2 R pl2 sh2 c2 t2 Hf Hfl Hk HR0 HR Hfl2 Hk2
         V out inp hdrtail sched EO back rest Hps Hpm Hsm Hne Ho Hi Hh Hs Hb8 KS E HV m0 Hm HI.
  exact (ppar_composed_gen 16 456 E (imageR _ (KernelSpecs2.half_bytes128 bool) R hdrtail sched) (cB_run 16 456 code2 fuel2)
           (Nat.lt_0_succ 15) (imageR_length 8 8 56 456 _ _ (KernelHom2.half_bytes128_length bool) eq_refl R hdrtail sched (f_equal (Nat.add 4) Hh) Hs)
           (imageR_bytes8 _ _ hb128_len8 R hdrtail sched) (fun blk _ => ProofsApiCtr.m128_decrypt_length _ blk)
           (fun fno KS' FKS => dec128_contract code2 fuel2 R pl2 sh2 c2 t2 HR0 HR Hfl2 Hk2 fno KS' hdrtail sched Hh Hs FKS)
           fields code fuel pl sh pl' sh' c t has_vt psize fvec fblk size rsz Hf Hfl Hk V out inp EO back rest
           Hps Hpm Hsm Hne Ho Hi Hb8 HV Hm HI).
Qed.

Theorem ppar64_dec_composed :
  forall fields code fuel pl sh pl' sh' c t has_vt psize fvec fblk size (rsz : list nat)     (* skinny64_parallel_ecb_decrypt *)
         code2 fuel2 R pl2 sh2 c2 t2,                                                        (* skinny64_ecb_decrypt *)
  fields_okb fields = true ->
  flat fields fuel pl sh code = Some (pl', sh', c, t) ->
  check_proc (size :: size :: rsz) c (pspec 164 poly has_vt psize 8 fvec fblk size) = true ->
  0 < R -> R <= 40 ->
  flat [ksf] fuel2 [0; 0; 0]%N [(ksf, N.of_nat R)] code2 = Some (pl2, sh2, c2, t2) ->
  check_block_w callP sizes64 2 4 c2 (dec_offs 4 4 R)
    (dec_stepsW poly (k64_subcells_inv poly pxor pand pzero pone) (k64_dec_linear poly pxor pzero pone) R)
    (dec_stepsW bool (k64_subcells_inv bool xorb andb false true) (k64_dec_linear bool xorb false true) R) = true ->
  forall (V : nat -> list bool -> list bool) (out inp hdrtail : list byte) (sched : list (half nib)) (EO back : list (list bool)) (rest : mem bool),
  0 < psize -> psize mod 8 = 0 -> size mod 8 = 0 -> fvec <> fblk ->
  length out = size -> length inp = size -> length hdrtail = 0 -> length sched = 40 -> bytes8 back ->
  let KS := ((rbytes R ++ bitsB hdrtail) ++ concat (map (KernelSpecs2.half_bytes64 bool) sched)) ++ back in
  let E := m64_decrypt {| ks_rounds := N.of_nat R; ks_sched := sched |} in
  (forall grp, length grp = psize ->
     V fvec (concat (bitsB grp) ++ concat (firstn 164 KS)) = concat (bitsB (concat (map E (blocks 8 grp))))) ->
  let m0 : mem bool := bitsB out :: bitsB inp :: EO :: KS :: rest in
  shaped (size :: size :: rsz) m0 -> SIRProofs.Inv fields sh m0 ->
  exists st', interp fields (cB_half fblk (cB_run 8 164 code2 fuel2) V) fuel pl (m0, []) code = Some (pl', st', t)
    /\ fst st' = bitsB (concat (map E (blocks 8 inp))) :: bitsB inp :: EO :: KS :: rest.
Proof.
  intros fields code fuel pl sh pl' sh' c t has_vt psize fvec fblk size rsz code2 fuel2 R pl2 sh2 c2 t2 Hf Hfl Hk HR0 HR Hfl2 Hk2
         V out inp hdrtail sched EO back rest Hps Hpm Hsm Hne Ho Hi Hh Hs Hb8 KS E HV m0 Hm HI.
  exact (ppar_composed_gen 8 164 E (imageR _ (KernelSpecs2.half_bytes64 bool) R hdrtail sched) (cB_run 8 164 code2 fuel2)
           (Nat.lt_0_succ 7) (imageR_length 4 4 40 164 _ _ (KernelHom2.half_bytes64_length bool) eq_refl R hdrtail sched (f_equal (Nat.add 4) Hh) Hs)
           (imageR_bytes8 _ _ hb64_len8 R hdrtail sched) (fun blk _ => ProofsApiCtr.m64_decrypt_length _ blk)
           (fun fno KS' FKS => dec64_contract code2 fuel2 R pl2 sh2 c2 t2 HR0 HR Hfl2 Hk2 fno KS' hdrtail sched Hh Hs FKS)
           fields code fuel pl sh pl' sh' c t has_vt psize fvec fblk size rsz Hf Hfl Hk V out inp EO back rest
           Hps Hpm Hsm Hne Ho Hi Hb8 HV Hm HI).
Qed.
Print Assumptions dec128_contract.
Print Assumptions dec64_contract.
Print Assumptions ppar128_dec_composed.
Print Assumptions ppar64_dec_composed.
