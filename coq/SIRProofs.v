(* SIRProofs.v — the reference interpreter of SIR.v (public fields read from the real memory) agrees with the
   partial evaluator [flat] (public fields read from a shadow that depends on public inputs only); consequently
   the trace of branch decisions and memory addresses of every execution is a function of the public inputs:
   [interp_trace_public] (constant-time, for the source-level leakage model of branches and addresses).
   Before that: IR.const_bits, add_bits, take_pad and skipn on the bits of numbers, and loads after stores. *)
From Coq Require Import List Bool NArith Arith Lia.
From Skinny Require Import ListFacts IR SIR IRCheck Frame.
Import ListNotations.

Lemma N_of_bits_testbit : forall l i, N.testbit (N_of_bits l) (N.of_nat i) = nth i l false.
Proof.
  induction l as [|b l IH]; intros i.
  - destruct i; reflexivity.
  - cbn [N_of_bits]. replace ((if b then 1 else 0) + 2 * N_of_bits l)%N with (2 * N_of_bits l + N.b2n b)%N
      by (destruct b; cbn [N.b2n]; lia).
    destruct i as [|i].
    + apply N.testbit_0_r.
    + rewrite Nat2N.inj_succ, N.testbit_succ_r. apply IH.
Qed.

Lemma N_of_bits_const_bits : forall w v, N_of_bits (const_bits bool false true w v) = trunc w v.
Proof.
  intros w v. apply N.bits_inj. intros k.
  rewrite <- (N2Nat.id k). rewrite N_of_bits_testbit. unfold trunc, const_bits.
  rewrite N.land_spec.
  destruct (Nat.lt_ge_cases (N.to_nat k) w) as [Hlt|Hge].
  - rewrite nth_map_seq by exact Hlt.
    rewrite N.ones_spec_low by lia. rewrite andb_true_r. destruct (N.testbit v (N.of_nat (N.to_nat k))); reflexivity.
  - rewrite nth_overflow by (rewrite map_length, seq_length; exact Hge).
    rewrite N.ones_spec_high by lia. rewrite andb_false_r. reflexivity.
Qed.

(* IR.add_bits is addition: on the bits of numbers (IR.const_bits, least significant bit first) the ripple-carry adder,
   truncation / zero extension and the right shift compute what their names say *)
Notation cbits := (const_bits bool false true).
Lemma cbits_S : forall w v, cbits (S w) v = N.testbit v 0 :: cbits w (N.div2 v).
Proof.
  intros w v. unfold const_bits. cbn [seq map N.of_nat]. rewrite <- seq_shift, map_map. f_equal.
  - destruct (N.testbit v 0); reflexivity.
  - apply map_ext. intros i. rewrite Nat2N.inj_succ, N.testbit_succ_r_div2 by apply N.le_0_l. reflexivity.
Qed.
Lemma add_cbits : forall w x y c, add_bits bool xorb andb c (cbits w x) (cbits w y) = cbits w (x + y + N.b2n c).
Proof.
  induction w as [|w IH]; intros x y c; [reflexivity|]. rewrite !cbits_S. cbn [add_bits]. rewrite IH. f_equal.
  - rewrite N.add3_bit0, N.b2n_bit0. reflexivity.
  - rewrite !N.div2_div, N.add_carry_div2. do 3 f_equal. destruct (N.testbit x 0), (N.testbit y 0), c; reflexivity.
Qed.
(* truncation (n <= w), or zero extension of a value that fits *)
Lemma take_pad_cbits : forall n w v, (w < n -> (v < 2 ^ N.of_nat w)%N) -> take_pad bool n false (cbits w v) = cbits n v.
Proof.
  induction n as [|n IH]; intros w v H; [reflexivity|]. rewrite cbits_S. destruct w as [|w].
  - assert (v = 0%N) by (specialize (H (Nat.lt_0_succ n)); cbn in H; lia). subst v.
    cbn [const_bits seq map take_pad]. f_equal. apply (IH 0 0%N). reflexivity.
  - rewrite cbits_S. cbn [take_pad]. f_equal. apply IH. intros Hw. rewrite N.div2_div.
    apply N.div_lt_upper_bound; [lia|]. rewrite <- N.pow_succ_r', <- Nat2N.inj_succ. apply H. lia.
Qed.
Lemma skipn_cbits : forall k w v, skipn k (cbits w v) = cbits (w - k) (N.shiftr v (N.of_nat k)).
Proof.
  induction k as [|k IH]; intros w v; [rewrite Nat.sub_0_r; reflexivity|]. destruct w as [|w]; [reflexivity|].
  rewrite cbits_S. cbn [skipn Nat.sub]. rewrite IH, N.div2_spec, N.shiftr_shiftr, N.add_1_l, Nat2N.inj_succ. reflexivity.
Qed.

Section MemB.
  Notation load' := (load bool false).
  Notation store' := (store bool false).

  Lemma nth_store_bytes_out : forall bs off (reg : list (list bool)) j d,
    j < off \/ off + length bs <= j -> nth j (store_bytes bool off bs reg) d = nth j reg d.
  Proof.
    induction bs as [|b bs IH]; intros off reg j d H; [reflexivity|].
    cbn [store_bytes]. rewrite IH by (cbn [length] in H; lia).
    apply nth_set_nth_ne. cbn [length] in H. lia.
  Qed.
  Lemma bytes_of_length : forall n (l : list bool), length (bytes_of bool false n l) = n.
  Proof. induction n as [|n IH]; intros l; [reflexivity|]. cbn [bytes_of length]. rewrite IH. reflexivity. Qed.

  Lemma load_store_other : forall m r off n v r' off' n',
    overlaps r off n (r', off', n') = false -> load' (store' m r off n v) r' off' n' = load' m r' off' n'.
  Proof.
    intros m r off n v r' off' n' H. unfold load, store. f_equal. apply map_ext_in. intros i Hi.
    apply in_seq in Hi. f_equal. rewrite nth_set_nth.
    destruct (Nat.eqb r' r && Nat.ltb r (length m))%bool eqn:E; [|reflexivity].
    apply andb_true_iff in E as [->%Nat.eqb_eq _].
    cbn [overlaps] in H. rewrite Nat.eqb_refl in H. cbn [andb] in H.
    apply nth_store_bytes_out. rewrite bytes_of_length.
    apply andb_false_iff in H as [H%Nat.ltb_ge | H%Nat.ltb_ge]; lia.
  Qed.

  Lemma nth_store_bytes_in : forall bs off (reg : list (list bool)) i d,
    off + length bs <= length reg -> i < length bs -> nth (off + i) (store_bytes bool off bs reg) d = nth i bs d.
  Proof.
    induction bs as [|b bs IH]; intros off reg i d Hb Hi; [cbn [length] in Hi; lia|].
    cbn [store_bytes]. cbn [length] in Hb, Hi. destruct i as [|i].
    - rewrite Nat.add_0_r. rewrite nth_store_bytes_out by lia. apply nth_set_nth_eq. lia.
    - replace (off + S i) with (S off + i) by lia. apply IH; [rewrite set_nth_length; lia | lia].
  Qed.

  Lemma load_store_same : forall m r off n v,
    r < length m -> off + n <= length (nth r m []) ->
    load' (store' m r off n v) r off n = concat (bytes_of bool false n v).
  Proof.
    intros m r off n v Hr Hb. unfold load, store. rewrite nth_set_nth_eq by exact Hr. f_equal.
    apply nth_ext with (d := []) (d' := []).
    - rewrite map_length, seq_length, bytes_of_length. reflexivity.
    - intros i Hi. rewrite map_length, seq_length in Hi. rewrite nth_map_seq by exact Hi.
      rewrite nth_store_bytes_in by (rewrite bytes_of_length; lia).
      rewrite (nth_indep _ (byte0_ bool false) []) by (rewrite bytes_of_length; exact Hi).
      (* every byte produced by bytes_of has exactly 8 bits: take_pad 8 is the identity on it *)
      apply take_pad_id. pose proof (bytes_of_len8 false n v) as F. rewrite Forall_forall in F. apply F.
      apply nth_In. rewrite bytes_of_length. exact Hi.
  Qed.

  Lemma concat_bytes_of : forall n (l : list bool), length l = 8 * n -> concat (bytes_of bool false n l) = l.
  Proof.
    induction n as [|n IH]; intros l Hl.
    - destruct l; [reflexivity | discriminate].
    - cbn [bytes_of concat]. rewrite IH by (rewrite skipn_length; lia).
      rewrite take_pad_id by (rewrite firstn_length; lia). apply firstn_skipn.
  Qed.

  Lemma store_length : forall (m : mem bool) r off n v, length (store' m r off n v) = length m.
  Proof. intros. unfold store. apply set_nth_length. Qed.
  Lemma store_region_length : forall (m : mem bool) r off n v r',
    length (nth r' (store' m r off n v) []) = length (nth r' m []).
  Proof.
    intros m r off n v r'. unfold store. rewrite nth_set_nth.
    destruct (Nat.eqb r' r && Nat.ltb r (length m))%bool eqn:E; [|reflexivity].
    apply andb_true_iff in E as [->%Nat.eqb_eq _].
    apply store_bytes_length.
  Qed.
End MemB.

Lemma field_eqb_eq : forall f g, field_eqb f g = true <-> f = g.
Proof.
  intros [[r o] n] [[r' o'] n']. cbn [field_eqb]. rewrite !andb_true_iff, !Nat.eqb_eq.
  split; [intros [[-> ->] ->]; reflexivity | intros H; inversion H; auto].
Qed.
Lemma sh_set_keys : forall sh f v, map fst (sh_set sh f v) = map fst sh.
Proof.
  induction sh as [|[g w] sh IH]; intros f v; [reflexivity|]. cbn [sh_set map fst].
  destruct (field_eqb f g); cbn [map fst]; [reflexivity | rewrite IH; reflexivity].
Qed.
Lemma vals_after_set : forall (val val' : field -> N) f v sh,
  NoDup (map fst sh) -> val' f = v -> (forall g, In g (map fst sh) -> g <> f -> val' g = val g) ->
  Forall (fun fv => val (fst fv) = snd fv) sh -> Forall (fun fv => val' (fst fv) = snd fv) (sh_set sh f v).
Proof.
  intros val val' f v sh. induction sh as [|[g w] sh IH]; intros Hnd Hs Ho Hv; [constructor|].
  inversion Hv as [|x l Hx Hl]; subst x l. cbn [map fst] in Hnd, Ho. inversion Hnd as [|y k Hnin Hnd']; subst y k.
  cbn [sh_set]. destruct (field_eqb f g) eqn:E.
  - (* the entry of f is replaced; no later entry has the key f *)
    apply field_eqb_eq in E. subst g. constructor; [exact Hs|].
    rewrite Forall_forall in *. intros gw Hin. pose proof (in_map fst _ _ Hin) as Hin'.
    rewrite Ho; [exact (Hl gw Hin) | right; exact Hin' | intros Heq; rewrite Heq in Hin'; exact (Hnin Hin')].
  - constructor.
    + cbn [fst snd]. rewrite Ho; [exact Hx | left; reflexivity |].
      intros ->. rewrite (proj2 (field_eqb_eq _ _) eq_refl) in E. discriminate.
    + apply IH; [exact Hnd' | exact Hs | | exact Hl]. intros g2 Hg2. apply Ho. right. exact Hg2.
Qed.

Section Agree.
  Variable fields : list field.
  Variable callf : nat -> list bool -> list bool.
  Notation execB' := (exec bool xorb andb false true callf).

  Definition field_val (m : mem bool) (f : field) : N :=
    let '(r, off, n) := f in N_of_bits (load bool false m r off n).
  Definition field_inb (m : mem bool) (f : field) : Prop :=
    let '(r, off, n) := f in r < length m /\ off + n <= length (nth r m []).
  Definition disjoint_fields : Prop :=
    forall f g, In f fields -> In g fields -> f <> g -> overlaps (fst (fst f)) (snd (fst f)) (snd f) g = false.

  Record Inv (sh : shadow) (m : mem bool) : Prop := {
    inv_keys : map fst sh = fields;
    inv_vals : Forall (fun fv => field_val m (fst fv) = snd fv) sh;
    inv_inb : Forall (field_inb m) fields
  }.

  Lemma existsb_field : forall f l, existsb (field_eqb f) l = true <-> In f l.
  Proof.
    intros f l. rewrite existsb_exists. split.
    - intros [g [Hg <-%field_eqb_eq]]. exact Hg.
    - intros H. exists f. split; [exact H | apply field_eqb_eq; reflexivity].
  Qed.

  Lemma rd_agree : forall sh m, Inv sh m -> forall r off n, rd_sh sh r off n = rd_mem fields m r off n.
  Proof.
    intros sh m [Hk Hv _] r off n. unfold rd_sh, rd_mem. subst fields.
    induction sh as [|[g v] sh IH]; [reflexivity|].
    inversion Hv as [|x l Hx Hl]; subst. cbn [sh_get map existsb fst].
    destruct (field_eqb (r, off, n) g) eqn:E.
    - apply field_eqb_eq in E. subst g. cbn [orb]. cbn [fst snd field_val] in Hx. rewrite Hx. reflexivity.
    - cbn [orb]. apply IH. exact Hl.
  Qed.

  Lemma peval_agree : forall sh m pl, Inv sh m -> forall e, peval (rd_sh sh) pl e = peval (rd_mem fields m) pl e.
  Proof.
    intros sh m pl HI e. induction e; cbn [peval]; rewrite ?IHe, ?IHe1, ?IHe2, ?IHe3; try reflexivity.
    apply (rd_agree sh m HI).
  Qed.

  Lemma fexpr_ext : forall pv1 pv2, (forall e, pv1 e = pv2 e) -> forall e, fexpr pv1 e = fexpr pv2 e.
  Proof.
    intros pv1 pv2 H. fix IH 1. intros e. destruct e; cbn [fexpr]; try reflexivity;
      try (rewrite H; reflexivity); try (rewrite (IH e); reflexivity).
    - rewrite (IH e1), (IH e2). reflexivity.
    - match goal with |- match ?g1 with _ => _ end = match ?g2 with _ => _ end => assert (E : g1 = g2) end.
      { induction l as [|a l IHl]; [reflexivity|]. rewrite (IH a), IHl. reflexivity. }
      rewrite E. reflexivity.
    - rewrite (IH e1), (IH e2). reflexivity.
  Qed.

  Lemma simple_agree : forall sh m pl s, Inv sh m ->
    simple fields (rd_sh sh) pl s = simple fields (rd_mem fields m) pl s.
  Proof.
    intros sh m pl s HI. pose proof (peval_agree sh m pl HI) as Hp.
    destruct s; cbn [simple]; try reflexivity; rewrite ?Hp;
      try rewrite (fexpr_ext _ _ Hp); reflexivity.
  Qed.

  Fixpoint stores_clear (p : list stmt) : bool :=
    match p with
    | [] => true
    | SLocal _ _ :: p' => stores_clear p'
    | SStore r off n _ :: p' => clear_of_fields fields r off n && stores_clear p'
    end.

  Lemma clear_not_overlaps : forall r off n f, clear_of_fields fields r off n = true -> In f fields ->
    overlaps r off n f = false.
  Proof.
    intros r off n f H Hin. unfold clear_of_fields in H. apply negb_true_iff in H.
    destruct (overlaps r off n f) eqn:E; [|reflexivity].
    assert (existsb (overlaps r off n) fields = true) by (apply existsb_exists; exists f; auto). congruence.
  Qed.

  Lemma clear_sub : forall r off n off' n', clear_of_fields fields r off n = true -> off <= off' -> off' + n' <= off + n ->
    clear_of_fields fields r off' n' = true.
  Proof.
    intros r off n off' n' H H1 H2. unfold clear_of_fields in *. apply negb_true_iff in H. apply negb_true_iff, not_true_is_false.
    intros [[[r2 o2] n2] [Hin Ho]]%existsb_exists.
    assert (existsb (overlaps r off n) fields = true); [|congruence].
    apply existsb_exists. exists (r2, o2, n2). split; [exact Hin|]. cbn [overlaps] in *.
    apply andb_true_iff in Ho as [[Hr Ho2]%andb_true_iff Ho3]. apply Nat.ltb_lt in Ho2, Ho3.
    rewrite Hr. apply andb_true_iff. split; apply Nat.ltb_lt; lia.
  Qed.
  Lemma copy_code_clear : forall n rd offd rs offs, clear_of_fields fields rd offd n = true ->
    stores_clear (copy_code rd offd rs offs n) = true.
  Proof.
    induction n as [|n IH]; intros rd offd rs offs H; [reflexivity|].
    cbn [copy_code stores_clear]. apply andb_true_iff. split; [|apply IH]; apply (clear_sub rd offd (S n) _ _ H); lia.
  Qed.
  Lemma fill_code_clear : forall n r off v, clear_of_fields fields r off n = true ->
    stores_clear (fill_code r off n v) = true.
  Proof.
    induction n as [|n IH]; intros r off v H; [reflexivity|].
    cbn [fill_code stores_clear]. apply andb_true_iff. split; [|apply IH]; apply (clear_sub r off (S n) _ _ H); lia.
  Qed.

  Lemma field_inb_store : forall m r off n v f, field_inb m f -> field_inb (store bool false m r off n v) f.
  Proof. intros m r off n v [[r' o'] n'] H. cbn [field_inb] in *. rewrite store_length, store_region_length. exact H. Qed.

  Lemma Inv_store_clear : forall sh m r off n v, Inv sh m -> clear_of_fields fields r off n = true ->
    Inv sh (store bool false m r off n v).
  Proof.
    intros sh m r off n v [Hk Hv Hb] Hc. constructor; [exact Hk | | exact (Forall_impl _ (field_inb_store m r off n v) Hb)].
    rewrite Forall_forall in *. intros [[[r' o'] n'] w] Hin. rewrite <- (Hv _ Hin). cbn [fst field_val]. f_equal.
    apply load_store_other, (clear_not_overlaps r off n _ Hc). rewrite <- Hk. exact (in_map fst _ _ Hin).
  Qed.

  (* code whose stores stay clear of the public fields preserves the invariant *)
  Lemma Inv_clear : forall c sh m loc, Inv sh m -> stores_clear c = true -> Inv sh (fst (execB' c (m, loc))).
  Proof.
    induction c as [|s c IH]; intros sh m loc HI Hc; [exact HI|].
    unfold exec. cbn [fold_left]. destruct s as [x e | r off n e]; cbn [stores_clear] in Hc.
    - apply (IH sh m _ HI Hc).
    - apply andb_true_iff in Hc as [H1 H2]. cbn [exec1]. apply (IH sh _ loc); [apply Inv_store_clear; assumption | exact H2].
  Qed.

  (* every simple statement but the store to a public field leaves the shadow alone and emits such code *)
  Lemma simple_clear : forall rd pl s pl1 u c1 t1, simple fields rd pl s = Some (pl1, u, c1, t1) ->
    match s with SPStore _ _ _ _ => True | _ => u = None /\ stores_clear c1 = true end.
  Proof.
    intros rd pl s pl1 u c1 t1 Hs. destruct s; cbn [simple] in Hs; try exact I; try discriminate.
    - destruct (fexpr (peval rd pl) e) as [[e' t]|]; [|discriminate]. inversion Hs. split; reflexivity.
    - destruct (peval rd pl off) as [o|]; [|discriminate].
      destruct (fexpr (peval rd pl) e) as [[e' t]|]; [|discriminate].
      destruct (clear_of_fields fields r (N.to_nat o) n) eqn:Ec; [|discriminate]. inversion Hs.
      split; [reflexivity|]. cbn [stores_clear]. rewrite Ec. reflexivity.
    - destruct (peval rd pl e) as [v|]; [|discriminate]. inversion Hs. split; reflexivity.
    - destruct (peval rd pl offd) as [od|]; [|discriminate].
      destruct (peval rd pl offs) as [os|]; [|discriminate].
      destruct (peval rd pl n) as [k|]; [|discriminate].
      destruct (clear_of_fields fields rd0 (N.to_nat od) (N.to_nat k)) eqn:Ec; [|discriminate]. inversion Hs.
      split; [reflexivity | apply copy_code_clear, Ec].
    - destruct (peval rd pl off) as [o|]; [|discriminate].
      destruct (peval rd pl n) as [k|]; [|discriminate].
      destruct (clear_of_fields fields r (N.to_nat o) (N.to_nat k)) eqn:Ec; [|discriminate]. inversion Hs.
      split; [reflexivity | apply fill_code_clear, Ec].
  Qed.

  Hypothesis Hdisj : disjoint_fields.
  Hypothesis Hnodup : NoDup fields.

  (* one simple statement preserves the invariant: only the store to a public field changes field values, and the shadow
     records the value stored *)
  Lemma simple_inv : forall sh m loc pl s pl1 u c1 t1, Inv sh m ->
    simple fields (rd_sh sh) pl s = Some (pl1, u, c1, t1) ->
    Inv (upd_sh sh u) (fst (execB' c1 (m, loc))).
  Proof.
    intros sh m loc pl s pl1 u c1 t1 HI Hs. pose proof (simple_clear _ _ _ _ _ _ _ Hs) as Hc.
    destruct s; try (rewrite (proj1 Hc); exact (Inv_clear c1 sh m loc HI (proj2 Hc))).
    clear Hc. cbn [simple] in Hs.
    destruct (peval (rd_sh sh) pl e) as [v|]; [|discriminate].
    destruct (existsb (field_eqb (r, off, n)) fields) eqn:Ef; [|discriminate]. inversion Hs; subst. clear Hs.
    apply existsb_field in Ef. destruct HI as [Hk Hv Hb]. cbn [upd_sh].
    unfold exec. cbn [fold_left exec1 fst eval].
    destruct (proj1 (Forall_forall _ _) Hb _ Ef) as [Hr Ho].
    constructor.
    - rewrite sh_set_keys. exact Hk.
    - apply (vals_after_set (field_val m)).
      + rewrite Hk. exact Hnodup.
      + cbn [field_val]. rewrite load_store_same by assumption.
        rewrite concat_bytes_of by (unfold const_bits; rewrite map_length, seq_length; reflexivity).
        rewrite N_of_bits_const_bits. unfold trunc. rewrite <- N.land_assoc, N.land_diag. reflexivity.
      + intros [[r' o'] n'] Hg Hne. cbn [field_val]. f_equal. apply load_store_other.
        rewrite Hk in Hg. apply (Hdisj (r, off, n) (r', o', n') Ef Hg). congruence.
      + exact Hv.
    - exact (Forall_impl _ (field_inb_store m r off n _) Hb).
  Qed.

  Lemma interp_flat_simple : forall fuel s rest pl sh m loc, Inv sh m ->
    (forall p pl sh m loc, Inv sh m ->
       interp fields callf fuel pl (m, loc) p
       = match flat fields fuel pl sh p with
         | Some (pl', sh', code, t) => Some (pl', execB' code (m, loc), t)
         | None => None
         end) ->
    match simple fields (rd_mem fields m) pl s with
    | Some (pl1, _, c1, t1) =>
        match interp fields callf fuel pl1 (execB' c1 (m, loc)) rest with
        | Some (pl', st', t) => Some (pl', st', t1 ++ t)
        | None => None end
    | None => None end
    = match match simple fields (rd_sh sh) pl s with
            | Some (pl1, u, c1, t1) =>
                match flat fields fuel pl1 (upd_sh sh u) rest with
                | Some (pl', sh', code, t) => Some (pl', sh', c1 ++ code, t1 ++ t)
                | None => None end
            | None => None end with
      | Some (pl', sh', code, t) => Some (pl', execB' code (m, loc), t)
      | None => None
      end.
  Proof.
    intros fuel s rest pl sh m loc HI IH. rewrite <- (simple_agree sh m pl s HI).
    destruct (simple fields (rd_sh sh) pl s) as [[[[pl1 u] c1] t1]|] eqn:Es; [|reflexivity].
    pose proof (simple_inv sh m loc pl s pl1 u c1 t1 HI Es) as HI1.
    destruct (execB' c1 (m, loc)) as [m1 loc1] eqn:Ex. cbn [fst] in HI1.
    rewrite (IH rest pl1 (upd_sh sh u) m1 loc1 HI1).
    destruct (flat fields fuel pl1 (upd_sh sh u) rest) as [[[[pl' sh'] code] t]|]; [|reflexivity].
    unfold exec. rewrite fold_left_app. fold (execB' c1 (m, loc)). rewrite Ex. reflexivity.
  Qed.

  Theorem interp_flat : forall fuel p pl sh m loc, Inv sh m ->
    interp fields callf fuel pl (m, loc) p
    = match flat fields fuel pl sh p with
      | Some (pl', sh', code, t) => Some (pl', execB' code (m, loc), t)
      | None => None
      end.
  Proof.
    induction fuel as [|fuel IH]; intros p pl sh m loc HI; [reflexivity|].
    cbn [interp flat]. destruct p as [|s rest]; [reflexivity|].
    cbn [fst].
    destruct s; try exact (interp_flat_simple fuel _ rest pl sh m loc HI IH).
    (* SIf, SWhile: the condition is public, and the statement list that follows runs under the same shadow *)
    all: rewrite <- (peval_agree sh m pl HI); destruct (peval (rd_sh sh) pl c) as [v|]; [|reflexivity].
    all: rewrite (IH _ pl sh m loc HI); destruct (flat fields fuel pl sh _) as [[[[pl' sh'] code] t]|]; reflexivity.
  Qed.

  Theorem interp_trace_public : forall fuel p pl sh m1 m2 loc1 loc2 pl1 st1 t1 pl2 st2 t2,
    Inv sh m1 -> Inv sh m2 ->
    interp fields callf fuel pl (m1, loc1) p = Some (pl1, st1, t1) ->
    interp fields callf fuel pl (m2, loc2) p = Some (pl2, st2, t2) ->
    t1 = t2 /\ pl1 = pl2.
  Proof.
    intros fuel p pl sh m1 m2 loc1 loc2 pl1 st1 t1 pl2 st2 t2 H1 H2 E1 E2.
    rewrite (interp_flat fuel p pl sh m1 loc1 H1) in E1. rewrite (interp_flat fuel p pl sh m2 loc2 H2) in E2.
    destruct (flat fields fuel pl sh p) as [[[[pl' sh'] code] t]|]; [|discriminate].
    inversion E1; inversion E2; subst. split; reflexivity.
  Qed.

  Theorem interp_defined_public : forall fuel p pl sh m1 m2 loc1 loc2, Inv sh m1 -> Inv sh m2 ->
    (interp fields callf fuel pl (m1, loc1) p = None <-> interp fields callf fuel pl (m2, loc2) p = None).
  Proof.
    intros fuel p pl sh m1 m2 loc1 loc2 H1 H2.
    rewrite (interp_flat fuel p pl sh m1 loc1 H1), (interp_flat fuel p pl sh m2 loc2 H2).
    destruct (flat fields fuel pl sh p) as [[[[pl' sh'] code] t]|]; split; intros; (reflexivity || discriminate).
  Qed.
End Agree.

Lemma Inv_single : forall f v m, field_val m f = v -> field_inb m f -> Inv [f] [(f, v)] m.
Proof.
  intros f v m Hv Hi. constructor; [reflexivity | constructor; [exact Hv | constructor] | constructor; [exact Hi | constructor]].
Qed.
Lemma disjoint_nil : disjoint_fields []. Proof. intros f g []. Qed.
Lemma Inv_nil : forall m, Inv [] [] m. Proof. intros m. constructor; constructor. Qed.

(* decidable side conditions on the field list of a generated function *)
Definition fields_okb (fields : list field) : bool :=
  forallb (fun f => forallb (fun g => field_eqb f g || negb (overlaps (fst (fst f)) (snd (fst f)) (snd f) g)) fields) fields
  && (fix nodup (l : list field) : bool :=
        match l with [] => true | f :: l' => negb (existsb (field_eqb f) l') && nodup l' end) fields.
Lemma fields_okb_sound : forall fields, fields_okb fields = true -> disjoint_fields fields /\ NoDup fields.
Proof.
  intros fields H. unfold fields_okb in H. apply andb_true_iff in H as [H1 H2]. split.
  - intros f g Hf Hg Hne. rewrite forallb_forall in H1. specialize (H1 f Hf). rewrite forallb_forall in H1.
    specialize (H1 g Hg). apply orb_true_iff in H1. destruct H1 as [H1|H1].
    + apply field_eqb_eq in H1. congruence.
    + apply negb_true_iff in H1. exact H1.
  - clear H1. induction fields as [|f l IH]; [constructor|].
    apply andb_true_iff in H2 as [Ha Hb]. constructor; [|apply IH; exact Hb].
    intros Hin. apply negb_true_iff in Ha. apply existsb_field in Hin. congruence.
Qed.

(* a translated function at one public configuration: runs to completion on every memory that agrees with the public fields,
   with the SAME trace of branch decisions and (region, offset, width) accesses *)
Theorem run_final : forall fields callf code fuel pl sh pl' sh' c t,
  fields_okb fields = true ->
  flat fields fuel pl sh code = Some (pl', sh', c, t) ->
  forall m, Inv fields sh m ->
  interp fields callf fuel pl (m, []) code = Some (pl', exec bool xorb andb false true callf c (m, []), t).
Proof.
  intros fields callf code fuel pl sh pl' sh' c t Hf Hfl m HI.
  destruct (fields_okb_sound fields Hf) as [Hd Hn].
  rewrite (interp_flat fields callf Hd Hn fuel code pl sh m [] HI), Hfl. reflexivity.
Qed.
