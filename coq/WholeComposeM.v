(* WholeComposeM.v — WholeCompose.v for MANTIS: the generic MANTIS CTR encryption (mantis_ctr_def_encrypt, call kept as a
   procedure) composed with mantis_ecb_crypt's own translated code (mcryptA_final). *)
From Coq Require Import List NArith Arith.
From Skinny Require Import Bits IR SIR Anf IRCheck SIRCheck SIRProofs ModelCipher ModelCtr WholeBridge WholeKey WholeMantis
                           WholeProc WholeCtr WholeCtrModel WholeCompose.
From Skinny Require ProofsApiCtr.
Import ListNotations.

Definition cB_runM (code : list SIR.sstmt) (fuel : nat) (pl : list N) (fno : nat) (bits : list bool) : list bool :=
  let L := bytes_of bool false (8 + 40) bits in
  let z := repeat (zbyte bool false) in
  let m0 : mem bool := [z 8; firstn 8 L; skipn 8 L; z 64; z 8; z 8; z 8] in
  match interp [mksfA] callB fuel pl (m0, []) code with
  | Some (_, st', _) => concat (nth 0 (fst st') [])
  | None => []
  end.

(* the byte image of a MANTIS key schedule with r rounds (the 40-byte MantisKey_t) *)
Definition mimageR (ks : mantis_ks) (r : nat) (tailrest : list byte) : list (list bool) :=
  rgb (mk_k0 ks) ++ rgb (mk_k0p ks) ++ rgb (mk_k1 ks) ++ rgb (mk_tweak ks) ++ rbytes r ++ bitsB tailrest.

Lemma mimageR_mimage : forall ks r tailrest, mimageR ks r tailrest = mimage ks (hdrR r tailrest).
Proof. intros ks r tailrest. unfold mimageR, mimage. rewrite bitsB_hdrR. reflexivity. Qed.

Lemma hdrR_length8 : forall r tailrest, length tailrest = 4 -> length (hdrR r tailrest) = 8.
Proof. intros r tailrest Ht. rewrite hdrR_length, Ht. reflexivity. Qed.

Lemma mimageR_region : forall ks r tailrest, length tailrest = 4 -> region_ok 40 (mimageR ks r tailrest).
Proof. intros ks r tailrest Ht. rewrite mimageR_mimage. exact (mimage_region ks _ (hdrR_length8 r tailrest Ht)). Qed.

(* the public field ks->rounds sits behind the four 8-byte key words *)
Lemma Inv_mimageR : forall ks r tailrest (o b : list (list bool)) rest, r <= 8 -> length tailrest = 4 ->
  SIRProofs.Inv [mksfA] [(mksfA, N.of_nat r)] (o :: b :: mimageR ks r tailrest :: rest).
Proof.
  intros ks r tailrest o b rest Hr Ht. apply Inv_single.
  - unfold mksfA, mimageR. rewrite !app_assoc, <- (app_assoc _ (rbytes r)).
    apply field_val_at; [rewrite !app_length, !rgb_len; reflexivity | exact (rounds_lt_2_32 r 8 Hr eq_refl)].
  - unfold mksfA, field_inb. cbn [nth length]. rewrite (proj1 (mimageR_region ks r tailrest Ht)).
    split; [apply le_n_S, le_n_S, le_n_S, Nat.le_0_l | repeat constructor].
Qed.

(* mcryptA_final on the object as mantis_set_key leaves it *)
Lemma mcryptA_on_mimageR : forall code fuel r pl pl' sh' c t, r <= 8 ->
  flat [mksfA] fuel pl [(mksfA, N.of_nat r)] code = Some (pl', sh', c, t) ->
  check_block callP msizesA c (msteps poly pxor pand pzero pone layA 24 r) (msteps bool xorb andb false true layA 24 r) = true ->
  forall (out blk tailrest rcj Tj Kj Xj : list byte) (ks : mantis_ks),
  length out = 8 -> length blk = 8 -> length tailrest = 4 -> length rcj = 64 -> length Tj = 8 -> length Kj = 8 -> length Xj = 8 ->
  N.to_nat (mk_rounds ks) = r ->
  exists st', interp [mksfA] callB fuel pl
                (([bitsB out; bitsB blk; mimageR ks r tailrest; bitsB rcj; bitsB Tj; bitsB Kj; bitsB Xj] : mem bool), []) code
              = Some (pl', st', t)
    /\ nth 0 (fst st') [] = bitsB (mantis_crypt ks blk)
    /\ nth 1 (fst st') [] = bitsB blk /\ nth 2 (fst st') [] = mimageR ks r tailrest.
Proof.
  intros code fuel r pl pl' sh' c t Hr Hflat Hcheck out blk tailrest rcj Tj Kj Xj ks Ho Hb Ht Hrc HT HK HX Hrounds.
  pose proof (Inv_mimageR ks r tailrest (bitsB out) (bitsB blk) [bitsB rcj; bitsB Tj; bitsB Kj; bitsB Xj] Hr Ht) as HInv.
  rewrite mimageR_mimage in *.
  apply (mcryptA_final code fuel r pl _ pl' sh' c t Hr Hflat Hcheck); try assumption.
  exact (hdrR_length8 r tailrest Ht).
Qed.

Section ComposeM.
  Variables (code : list sstmt) (fuel r : nat) (pl pl' : list N) (sh' : shadow) (c : list stmt) (t : list event).
  Hypothesis Hr : r <= 8.
  Hypothesis Hflat : flat [mksfA] fuel pl [(mksfA, N.of_nat r)] code = Some (pl', sh', c, t).
  Hypothesis Hcheck : check_block callP msizesA c (msteps poly pxor pand pzero pone layA 24 r) (msteps bool xorb andb false true layA 24 r) = true.

  Theorem mantis_contract : forall fno (ks : mantis_ks) (tailrest : list byte),
    length tailrest = 4 -> N.to_nat (mk_rounds ks) = r ->
    forall blk, length blk = 8 ->
    cB_runM code fuel pl fno (concat (bitsB blk) ++ concat (firstn 40 (mimageR ks r tailrest)))
    = concat (bitsB (mantis_crypt ks blk)).
  Proof.
    intros fno ks tailrest Ht Hrounds blk Hb. unfold cB_runM. cbv zeta.
    destruct (mimageR_region ks r tailrest Ht) as [LK K8].
    rewrite (firstn_all2 (mimageR ks r tailrest)) by (rewrite LK; apply le_n).
    destruct (decode_arg_split blk _ 8 40 Hb LK K8) as [-> ->]. rewrite <- !bits_zeros.
    destruct (mcryptA_on_mimageR code fuel r pl pl' sh' c t Hr Hflat Hcheck (zeros 8) blk tailrest (zeros 64) (zeros 8) (zeros 8) (zeros 8) ks
                eq_refl Hb Ht eq_refl eq_refl eq_refl eq_refl Hrounds) as [st' [-> [-> _]]].
    reflexivity.
  Qed.
End ComposeM.

(* region 3 is the MantisCTRCtx_t of src/mantis-ctr.c: ks (MantisKey_t, 40 bytes) at 0, counter (8) at 40, ecounter (8) at 40 + 8,
   offset (4) at 40 + 8 + 8, then plen bytes of anything; cspec takes the block size 8, the schedule length 40 and these three offsets *)
Theorem pctrM_composed :
  forall fields code fuel pl sh pl' sh' c t fno off size plen           (* mantis_ctr_def_encrypt *)
         code2 fuel2 r pl2 pl2' sh2 c2 t2,                              (* mantis_ecb_crypt *)
  fields_okb fields = true ->
  flat fields fuel pl sh code = Some (pl', sh', c, t) ->
  check_proc [size; size; 16; 40 + 8 + 8 + 4 + plen] c
    (cspec poly pxor pand pzero pone 8 40 40 (40 + 8) (40 + 8 + 8) fno off size) = true ->
  r <= 8 ->
  flat [mksfA] fuel2 pl2 [(mksfA, N.of_nat r)] code2 = Some (pl2', sh2, c2, t2) ->
  check_block callP msizesA c2 (msteps poly pxor pand pzero pone layA 24 r) (msteps bool xorb andb false true layA 24 r) = true ->
  forall (out inp cnt ecnt tailrest : list byte) (ks : mantis_ks) (CO pad : list (list bool)),
  off <= 8 -> length out = size -> length inp = size -> length cnt = 8 -> length ecnt = 8 ->
  length tailrest = 4 -> N.to_nat (mk_rounds ks) = r ->
  length CO = 16 -> bytes8 CO -> length pad = plen -> bytes8 pad ->
  let KS := mimageR ks r tailrest in
  let m0 := img (bitsB inp) CO KS pad (bitsB out) cnt ecnt off in
  SIRProofs.Inv fields sh m0 ->
  forall c' outb,
  crypt unit (fun _ => mantis_crypt ks) 8 1 {| c_key := tt; c_lanes := [cnt]; c_ecounter := ecnt; c_off := off |} inp = Some (c', outb) ->
  exists st' cnt' ecnt',
    interp fields (cB_runM code2 fuel2 pl2) fuel pl (m0, []) code = Some (pl', st', t) /\
    c_lanes c' = [cnt'] /\ c_ecounter c' = ecnt' /\
    fst st' = img (bitsB inp) CO KS pad (bitsB outb) cnt' ecnt' (c_off c').
Proof.
  intros fields code fuel pl sh pl' sh' c t fno off size plen code2 fuel2 r pl2 pl2' sh2 c2 t2 Hf Hfl Hk Hr Hfl2 Hk2
         out inp cnt ecnt tailrest ks CO pad Hoff Ho Hi Hc He Ht Hrounds HCO HCO8 Hpad Hpad8 KS m0 HInv c' outb Hcr.
  destruct (mimageR_region ks r tailrest Ht) as [LKS KS8].
  apply (pctr_model fields code fuel pl sh pl' sh' c t 8 40 40 fno off size plen Hf Hfl Hk (cB_runM code2 fuel2 pl2) (mantis_crypt ks)
           out inp cnt ecnt CO KS pad (Nat.lt_0_succ 7) (le_n 40)); try assumption.
  - intros blk _. apply ProofsApiCtr.mantis_crypt_length.
  - intros blk Hb. exact (mantis_contract code2 fuel2 r pl2 pl2' sh2 c2 t2 Hr Hfl2 Hk2 fno ks tailrest Ht Hrounds blk Hb).
Qed.
Print Assumptions mantis_contract.
Print Assumptions pctrM_composed.
