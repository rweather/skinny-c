(* WholeKey.v — the WHOLE key-schedule functions skinny*_set_key, _set_tweaked_key, _set_tweak, in three parts:
   their specifications on the memory of the generated whole-function IR, polymorphic in the bit carrier (the loop bodies of
   KernelSpecs2.v iterated over a sliding window of the schedule object), with the homomorphism property that
   SIRCheck.check_obs_sound asks for; [obs_final] / [reject_final], the form in which every generated obligation about
   observable regions is used; and the bridge from the specifications to the model's passes (ModelCipher.sched_loop). *)
From Coq Require Import List NArith Arith Lia.
From Skinny Require Import ListFacts Bits SpecSkinny IR SIR Anf IRCheck KernelSpecs KernelSpecs2 KernelHom KernelHom2 SIRCheck
                           WholeSpecs SIRProofs ModelCipher ProofsSkinny KernelBridge WholeBridge.
Import ListNotations.

Section Loop.
  Variable B : Type.
  (* the body works on  tk :: window :: aux ;  st = tk :: aux.  Window i = bytes [sw*i, sw*i + 2*sw) of ks:
     the sw bytes before slot i (left alone by the body) and slot i. *)
  Fixpoint loop_win (body : mem B -> mem B) (sw n i : nat) (st : mem B) (ks : list (list B)) : mem B * list (list B) :=
    match n with
    | O => (st, ks)
    | S n' =>
        let w := firstn (2 * sw) (skipn (sw * i) ks) in
        let m' := body (nth 0 st [] :: w :: tl st) in
        loop_win body sw n' (S i) (nth 0 m' [] :: skipn 2 m') (splice B ks (sw * i) (nth 1 m' []))
    end.
  Definition pass (body : mem B -> mem B) (sw n : nat) (tk : list (list B)) (aux : mem B) (ks : list (list B)) : list (list B) :=
    snd (loop_win body sw n 0 (tk :: aux) ks).
End Loop.

Section LoopHom.
  Variables B1 B2 : Type.
  Variable h : B1 -> B2.
  Notation hb := (map (map h)).
  Notation hm := (map (map (map h))).
  Variables (body1 : mem B1 -> mem B1) (body2 : mem B2 -> mem B2).
  Hypothesis Hbody : forall m, hm (body1 m) = body2 (hm m).

  Lemma loop_win_hom : forall sw n i st ks,
    (hm (fst (loop_win B1 body1 sw n i st ks)), hb (snd (loop_win B1 body1 sw n i st ks)))
    = loop_win B2 body2 sw n i (hm st) (hb ks).
  Proof.
    intros sw n. induction n as [|n IH]; intros i st ks; [reflexivity|].
    cbn [loop_win]. rewrite IH, (hb_splice B1 B2 h). cbn [map].
    rewrite <- !(nth_hm B1 B2 h), <- skipn_map, Hbody. cbn [map].
    rewrite <- (nth_hm B1 B2 h), skipn_map, firstn_map. destruct st; reflexivity.
  Qed.
  Lemma pass_hom : forall sw n tk aux ks,
    hb (pass B1 body1 sw n tk aux ks) = pass B2 body2 sw n (hb tk) (hm aux) (hb ks).
  Proof.
    intros sw n tk aux ks. exact (f_equal snd (loop_win_hom sw n 0 (tk :: aux) ks)).
  Qed.
End LoopHom.

(* the loop on the byte image of a model schedule is the model's pass (ModelCipher.sched_loop) *)
Section LoopBridge.
  Variable C : Type.
  Variable hb : half C -> list (list bool).                  (* the byte image of a schedule slot, sw bytes *)
  Variable sw : nat.
  Hypothesis hb_len : forall e, length (hb e) = sw.
  Variable regS : state C -> list (list bool).               (* the tweakey block as a region *)
  Variable aux : rc6 -> mem bool.                            (* what else the loop carries: nothing, or the round constant *)
  Variable body : mem bool -> mem bool.
  Variable upd : half C -> half C -> rc6 -> half C.
  Variable next : state C -> state C.
  Hypothesis body_step : forall tk r e pre, length pre = sw ->
    body (regS tk :: (pre ++ hb e) :: aux r)
    = regS (next tk) :: (pre ++ hb (upd e (rows01 C tk) (rc_next r))) :: aux (rc_next r).

  (* iteration i works on the window  pre ++ slot i  behind the first sw*i bytes f0 *)
  Lemma loop_win_image : forall n i tk r f0 pre sched back,
    length f0 = sw * i -> length pre = sw -> n <= length sched ->
    snd (loop_win bool body sw n i (regS tk :: aux r) (f0 ++ pre ++ concat (map hb sched) ++ back))
    = f0 ++ pre ++ concat (map hb (sched_loop C n upd next tk r sched)) ++ back.
  Proof.
    induction n as [|n IH]; intros i tk r f0 pre sched back Hf Hp Hn; [reflexivity|].
    destruct sched as [|e rest]; [inversion Hn|].
    cbn [loop_win sched_loop map concat nth tl].
    replace (f0 ++ pre ++ (hb e ++ concat (map hb rest)) ++ back)
      with (f0 ++ (pre ++ hb e) ++ concat (map hb rest) ++ back) by (rewrite <- !app_assoc; reflexivity).
    rewrite (skipn_app_exact f0 _ _ Hf), (firstn_app_exact (pre ++ hb e) _ (2 * sw)) by (rewrite app_length, Hp, hb_len; lia).
    rewrite (body_step tk r e pre Hp). cbn [nth skipn].
    rewrite (splice_mid bool f0 _ _ (pre ++ hb (upd e (rows01 C tk) (rc_next r))) _ Hf) by (rewrite !app_length, !hb_len; reflexivity).
    rewrite (app_assoc f0 pre), <- (app_assoc pre), (app_assoc f0 pre).
    rewrite (IH (S i) _ _ (f0 ++ pre)), <- !app_assoc; [reflexivity| |apply hb_len|apply le_S_n, Hn].
    rewrite app_length, Hf, Hp. symmetry. apply Nat.mul_succ_r.
  Qed.

  Lemma pass_image : forall n tk hdr sched back, length hdr = sw -> n <= length sched ->
    pass bool body sw n (regS tk) (aux rc_init) (hdr ++ concat (map hb sched) ++ back)
    = hdr ++ concat (map hb (sched_loop C n upd next tk rc_init sched)) ++ back.
  Proof.
    intros n tk hdr sched back Hh Hn.
    exact (loop_win_image n 0 tk rc_init [] hdr sched back (eq_sym (Nat.mul_0_r sw)) Hh Hn).
  Qed.
End LoopBridge.

Section KeyG.
  Variable B : Type.
  Variables (b0 b1 : B).
  Variable body1 : bool -> mem B -> mem B.                    (* set_tk1 body, plain / tweaked *)
  Variables (body2 body3 bodyx : mem B -> mem B).             (* set_tk2, set_tk3, xor_tk1 bodies *)
  Variables (sw bs ksz R1 R2 R3 : nat).                       (* slot bytes, block bytes, sizeof(Key_t), rounds for 1/2/3 tweakey blocks *)
  Notation reg := (reg B).
  Definition zbyte : list B := repeat b0 8.
  Definition padb (n : nat) (l : list (list B)) : list (list B) := firstn n (l ++ repeat zbyte n).
  Definition rc0 : mem B := [[zbyte]].
  Definition set_rounds (R : nat) (ks : list (list B)) : list (list B) :=
    splice B ks 0 (bytes_of B b0 4 (const_bits B b0 b1 32 (N.of_nat R))).

  Notation p1 tw := (pass B (body1 tw) sw).
  Notation p2 := (pass B body2 sw).
  Notation p3 := (pass B body3 sw).
  Notation px := (pass B bodyx sw).

  (* skinny*_set_key_inner; [key] has sz bytes, [tweak] bs *)
  Definition key_sched (sz : nat) (tweaked : bool) (key tweak : list (list B)) (ks : list (list B)) : list (list B) :=
    if negb tweaked then
      if Nat.eqb sz bs then p1 false R1 (padb bs key) rc0 (set_rounds R1 ks)
      else if Nat.leb sz (2 * bs) then
        p2 R2 (padb bs (skipn bs key)) [] (p1 false R2 (firstn bs key) rc0 (set_rounds R2 ks))
      else
        p3 R3 (padb bs (skipn (2 * bs) key)) []
           (p2 R3 (firstn bs (skipn bs key)) [] (p1 false R3 (firstn bs key) rc0 (set_rounds R3 ks)))
    else
      if Nat.eqb sz bs then p2 R2 (padb bs key) [] (p1 true R2 tweak rc0 (set_rounds R2 ks))
      else p3 R3 (padb bs (skipn bs key)) [] (p2 R3 (firstn bs key) [] (p1 true R3 tweak rc0 (set_rounds R3 ks))).

  (* observable regions: the schedule object and the (unchanged) key / tweak buffer *)
  Definition w_set_key (sz : nat) (m : mem B) : mem B :=
    [key_sched sz false (firstn sz (reg m 1)) [] (reg m 0); reg m 1].
  (* Skinny*TweakedKey_t = the schedule (ksz bytes) followed by the bs-byte tweak *)
  Definition w_set_tweaked_key (sz : nat) (m : mem B) : mem B :=
    let z := repeat zbyte bs in
    [key_sched sz true (firstn sz (reg m 1)) z (splice B (reg m 0) ksz z); reg m 1].
  Definition w_set_tweak (R tsz : nat) (null : bool) (m : mem B) : mem B :=
    let ks := reg m 0 in
    let prev := firstn bs (skipn ksz ks) in
    let newtw := if null then repeat zbyte bs else padb bs (firstn tsz (reg m 1)) in
    [px R newtw [] (px R prev [] (splice B ks ksz newtw)); reg m 1].
End KeyG.

Section KeyGHom.
  Variables B1 B2 : Type.
  Variables (z1 o1 : B1) (z2 o2 : B2).
  Variable h : B1 -> B2.
  Hypothesis h_z : h z1 = z2.
  Hypothesis h_o : h o1 = o2.
  Notation hb := (map (map h)).
  Notation hm := (map (map (map h))).
  Variables (b1a : bool -> mem B1 -> mem B1) (b2a b3a bxa : mem B1 -> mem B1).
  Variables (b1b : bool -> mem B2 -> mem B2) (b2b b3b bxb : mem B2 -> mem B2).
  Hypothesis H1 : forall tw m, hm (b1a tw m) = b1b tw (hm m).
  Hypothesis H2 : forall m, hm (b2a m) = b2b (hm m).
  Hypothesis H3 : forall m, hm (b3a m) = b3b (hm m).
  Hypothesis Hx : forall m, hm (bxa m) = bxb (hm m).
  Variables (sw bs ksz R1 R2 R3 : nat).

  Lemma hb_zbyte : map h (zbyte B1 z1) = zbyte B2 z2.
  Proof. unfold zbyte. rewrite map_repeat', h_z. reflexivity. Qed.
  Lemma hb_padb : forall n l, hb (padb B1 z1 n l) = padb B2 z2 n (hb l).
  Proof. intros n l. unfold padb. rewrite <- firstn_map, map_app, map_repeat', hb_zbyte. reflexivity. Qed.
  Lemma hb_zeros : forall n, hb (repeat (zbyte B1 z1) n) = repeat (zbyte B2 z2) n.
  Proof. intros n. rewrite map_repeat', hb_zbyte. reflexivity. Qed.
  Lemma hm_rc0 : hm (rc0 B1 z1) = rc0 B2 z2.
  Proof. unfold rc0. cbn [map]. rewrite hb_zbyte. reflexivity. Qed.
  Lemma hb_set_rounds : forall R ks, hb (set_rounds B1 z1 o1 R ks) = set_rounds B2 z2 o2 R (hb ks).
  Proof.
    intros R ks. unfold set_rounds. rewrite (hb_splice B1 B2 h). f_equal.
    rewrite (bytes_of_hom B1 B2 z1 z2 h h_z), (const_bits_hom B1 B2 z1 o1 z2 o2 h h_z h_o). reflexivity.
  Qed.

  Lemma key_sched_hom : forall sz tw key tweak ks,
    hb (key_sched B1 z1 o1 b1a b2a b3a sw bs R1 R2 R3 sz tw key tweak ks)
    = key_sched B2 z2 o2 b1b b2b b3b sw bs R1 R2 R3 sz tw (hb key) (hb tweak) (hb ks).
  Proof.
    intros sz tw key tweak ks. unfold key_sched.
    destruct (negb tw), (Nat.eqb sz bs), (Nat.leb sz (2 * bs));
      rewrite ?(pass_hom B1 B2 h _ _ H3), ?(pass_hom B1 B2 h _ _ H2), (pass_hom B1 B2 h _ _ (H1 _)), hm_rc0, ?hb_padb, hb_set_rounds,
        ?skipn_map, ?firstn_map; reflexivity.
  Qed.

  Lemma w_set_key_hom : forall sz m,
    hm (w_set_key B1 z1 o1 b1a b2a b3a sw bs R1 R2 R3 sz m) = w_set_key B2 z2 o2 b1b b2b b3b sw bs R1 R2 R3 sz (hm m).
  Proof.
    intros sz m. unfold w_set_key. cbn [map]. rewrite key_sched_hom, !(reg_homG B1 B2 h), firstn_map. reflexivity.
  Qed.
  Lemma w_set_tweaked_key_hom : forall sz m,
    hm (w_set_tweaked_key B1 z1 o1 b1a b2a b3a sw bs ksz R1 R2 R3 sz m)
    = w_set_tweaked_key B2 z2 o2 b1b b2b b3b sw bs ksz R1 R2 R3 sz (hm m).
  Proof.
    intros sz m. unfold w_set_tweaked_key. cbv zeta. cbn [map].
    rewrite key_sched_hom, (hb_splice B1 B2 h), hb_zeros, !(reg_homG B1 B2 h), firstn_map. reflexivity.
  Qed.
  Lemma w_set_tweak_hom : forall R tsz null m,
    hm (w_set_tweak B1 z1 bxa sw bs ksz R tsz null m) = w_set_tweak B2 z2 bxb sw bs ksz R tsz null (hm m).
  Proof.
    intros R tsz null m. unfold w_set_tweak. cbv zeta. cbn [map]. rewrite !(pass_hom B1 B2 h _ _ Hx), (hb_splice B1 B2 h), !(reg_homG B1 B2 h).
    destruct null.
    - rewrite !hb_zeros, skipn_map, firstn_map. reflexivity.
    - rewrite !hb_padb, skipn_map, !firstn_map. reflexivity.
  Qed.
End KeyGHom.

(* slot bytes, block bytes, sizeof(Skinny*Key_t) (WholeBridge.sizes128 / sizes64), and ks->rounds as skinny*_set_key_inner
   sets it for one, two or three tweakey blocks: 40 / 48 / 56 (src/skinny128-cipher.c), 32 / 36 / 40 (src/skinny64-cipher.c) *)
Section Inst.
  Variable B : Type.
  Variables (bx : B -> B -> B) (b0 b1 : B).
  Definition w_set_key128 := w_set_key B b0 b1 (k128_tk1_body B bx b0 b1) (k128_tk2_body B bx b0) (k128_tk3_body B bx b0) 8 16 40 48 56.
  Definition w_set_tweaked_key128 :=
    w_set_tweaked_key B b0 b1 (k128_tk1_body B bx b0 b1) (k128_tk2_body B bx b0) (k128_tk3_body B bx b0) 8 16 456 40 48 56.
  Definition w_set_tweak128 := w_set_tweak B b0 (k128_xor_tk1_body B bx b0) 8 16 456.
  Definition w_set_key64 := w_set_key B b0 b1 (k64_tk1_body B bx b0 b1) (k64_tk2_body B bx b0) (k64_tk3_body B bx b0) 4 8 32 36 40.
  Definition w_set_tweaked_key64 :=
    w_set_tweaked_key B b0 b1 (k64_tk1_body B bx b0 b1) (k64_tk2_body B bx b0) (k64_tk3_body B bx b0) 4 8 164 32 36 40.
  Definition w_set_tweak64 := w_set_tweak B b0 (k64_xor_tk1_body B bx b0) 4 8 164.
End Inst.

(* each specification commutes with [peval rho] because its loop bodies do *)
Local Hint Resolve peval_pxor peval_pzero peval_pone k128_tk1_body_homG k128_tk2_body_homG k128_tk3_body_homG k128_xor_tk1_body_homG
  k64_tk1_body_homG k64_tk2_body_homG k64_tk3_body_homG k64_xor_tk1_body_homG : pev.

Lemma w_set_key128_homU : forall sz, homU (w_set_key128 poly pxor pzero pone sz) (w_set_key128 bool xorb false true sz).
Proof. intros sz rho m. apply w_set_key_hom; intros; auto with pev. Qed.
Lemma w_set_tweaked_key128_homU : forall sz,
  homU (w_set_tweaked_key128 poly pxor pzero pone sz) (w_set_tweaked_key128 bool xorb false true sz).
Proof. intros sz rho m. apply w_set_tweaked_key_hom; intros; auto with pev. Qed.
Lemma w_set_tweak128_homU : forall R tsz null,
  homU (w_set_tweak128 poly pxor pzero R tsz null) (w_set_tweak128 bool xorb false R tsz null).
Proof. intros R tsz null rho m. apply w_set_tweak_hom; intros; auto with pev. Qed.
Lemma w_set_key64_homU : forall sz, homU (w_set_key64 poly pxor pzero pone sz) (w_set_key64 bool xorb false true sz).
Proof. intros sz rho m. apply w_set_key_hom; intros; auto with pev. Qed.
Lemma w_set_tweaked_key64_homU : forall sz,
  homU (w_set_tweaked_key64 poly pxor pzero pone sz) (w_set_tweaked_key64 bool xorb false true sz).
Proof. intros sz rho m. apply w_set_tweaked_key_hom; intros; auto with pev. Qed.
Lemma w_set_tweak64_homU : forall R tsz null,
  homU (w_set_tweak64 poly pxor pzero R tsz null) (w_set_tweak64 bool xorb false R tsz null).
Proof. intros R tsz null rho m. apply w_set_tweak_hom; intros; auto with pev. Qed.

Theorem obs_final : forall fields code fuel pl sh pl' sh' c t sizes obs sP sB,
  fields_okb fields = true ->
  flat fields fuel pl sh code = Some (pl', sh', c, t) ->
  homU sP sB ->
  check_obs (callf_spec poly pxor pand pzero pone) sizes obs c sP = true ->
  forall m, shaped sizes m -> Inv fields sh m ->
  interp fields (callf_spec bool xorb andb false true) fuel pl (m, []) code
    = Some (pl', execB (callf_spec bool xorb andb false true) c (m, []), t)
  /\ proj obs (fst (execB (callf_spec bool xorb andb false true) c (m, []))) = sB m.
Proof.
  intros fields code fuel pl sh pl' sh' c t sizes obs sP sB Hf Hfl Hh Hk m Hm HI. split.
  - exact (run_final fields _ code fuel pl sh pl' sh' c t Hf Hfl m HI).
  - apply (check_obs_sound _ _ sizes obs c sP sB callf_spec_hom (homU_spec_hom sizes sP sB Hh) Hk m Hm).
Qed.
(* a rejected call: no code at all, hence no memory access and an unchanged memory *)
Theorem reject_final : forall fields code fuel pl sh pl' sh' t,
  fields_okb fields = true ->
  flat fields fuel pl sh code = Some (pl', sh', [], t) ->
  forall m, Inv fields sh m ->
  interp fields (callf_spec bool xorb andb false true) fuel pl (m, []) code = Some (pl', (m, []), t).
Proof.
  intros fields code fuel pl sh pl' sh' t Hf Hfl m HI.
  exact (run_final fields _ code fuel pl sh pl' sh' [] t Hf Hfl m HI).
Qed.

Notation bitsb := bitsB.       (* the spelling of the statements below *)
Definition rbytes (R : nat) : list (list bool) := bytes_of bool false 4 (const_bits bool false true 32 (N.of_nat R)).

Lemma bits_pad_to : forall n (l : list byte), bitsb (pad_to n l) = padb bool false n (bitsb l).
Proof.
  intros n l. unfold pad_to, padb, zeros. rewrite <- firstn_map, map_app, map_repeat'. reflexivity.
Qed.
(* stated over [list byte]: through firstn_map the element type would appear unfolded, as c8 bool *)
Lemma bits_firstn : forall n (l : list byte), firstn n (bitsb l) = bitsb (firstn n l).
Proof. intros n l. apply firstn_map. Qed.
Lemma bits_skipn : forall n (l : list byte), skipn n (bitsb l) = bitsb (skipn n l).
Proof. intros n l. apply skipn_map. Qed.
Lemma bits_zeros : forall n, bitsb (zeros n) = repeat (zbyte bool false) n.
Proof. intros n. exact (map_repeat' (bits_of_c8 bool) byte0 n). Qed.
Lemma rbytes_len : forall R, length (rbytes R) = 4.
Proof. intros R. reflexivity. Qed.
(* a 4-byte public field of region 2 that holds the little-endian bytes of R (rbytes R) has the value R — at any offset,
   and at offset 0 (ksf, the field ks->rounds of a key-schedule object) *)
Lemma field_val_at : forall R off (pre tail o b : list (list bool)) rest, length pre = off -> (N.of_nat R < 2 ^ 32)%N ->
  field_val (o :: b :: (pre ++ rbytes R ++ tail) :: rest) (2, off, 4) = N.of_nat R.
Proof.
  intros R off pre tail o b rest Hp HR. unfold field_val, load. cbn [nth seq map]. rewrite <- Hp.
  rewrite !app_nth2_plus.
  unfold rbytes. set (X := const_bits bool false true 32 (N.of_nat R)).
  assert (LX : length X = 32) by (unfold X, const_bits; rewrite map_length, seq_length; reflexivity).
  cbn [bytes_of app nth].
  rewrite !(take_pad_id false (take_pad bool 8 false _)) by apply take_pad_length.
  change (take_pad bool 8 false (firstn 8 X) :: _) with (bytes_of bool false 4 X).
  rewrite concat_bytes_of by exact LX.
  unfold X. rewrite N_of_bits_const_bits. unfold trunc.
  change (N.ones (N.of_nat 32)) with (N.ones 32). rewrite N.land_ones. apply N.mod_small. exact HR.
Qed.

Lemma field_val_rounds : forall R (tail o b s : list (list bool)) rest, (N.of_nat R < 2 ^ 32)%N ->
  field_val [o; b; (rbytes R ++ tail) ++ rest; s] ksf = N.of_nat R.
Proof. intros R tail o b s rest HR. rewrite <- app_assoc. exact (field_val_at R 0 [] (tail ++ rest) o b [s] eq_refl HR). Qed.

Lemma rounds_lt_2_32 : forall R n, R <= n -> (N.of_nat n < 2 ^ 32)%N -> (N.of_nat R < 2 ^ 32)%N.
Proof. intros R n H. apply N.le_lt_trans. lia. Qed.
(* the rounds field is the first four bytes of the header *)
Lemma set_rounds_image : forall R (hdr rest : list (list bool)), 4 <= length hdr ->
  set_rounds bool false true R (hdr ++ rest) = (rbytes R ++ skipn 4 hdr) ++ rest.
Proof.
  intros R hdr rest Hh. unfold set_rounds, splice. cbn [firstn app plus]. fold (rbytes R). rewrite rbytes_len.
  rewrite skipn_app. replace (4 - length hdr) with 0 by lia. cbn [skipn]. rewrite <- app_assoc. reflexivity.
Qed.
Lemma rounds_hdr_length : forall R (hdr : list (list bool)), 4 <= length hdr -> length (rbytes R ++ skipn 4 hdr) = length hdr.
Proof. intros R hdr H. rewrite app_length, rbytes_len, skipn_length. lia. Qed.

(* The bridge for one cipher: C is the cell type; hb and regS give the byte images of a schedule slot and of a tweakey
   block; the hypotheses are what KernelHom2 proves of half_bytes*, reg_of_state* and the four loop bodies. *)
Section KeyModel.
  Variable ksz : nat.
  Variable C : Type.
  Variable cx : C -> C -> C.
  Variable cnib : bool -> bool -> bool -> bool -> C.
  Variables l2 l3 : C -> C.
  Variable bs : nat.
  Variable load : list byte -> state C.
  Variable c0 : C.
  Variable rounds_for : nat -> nat.
  Variable hb : half C -> list (list bool).
  Variable regS : state C -> list (list bool).
  Variable body1 : bool -> mem bool -> mem bool.
  Variables body2 body3 bodyx : mem bool -> mem bool.
  Variable sw : nat.
  Hypothesis sw_hdr : 4 <= sw.
  Hypothesis hb_len : forall e, length (hb e) = sw.
  Hypothesis reg_load : forall l, length l = bs -> regS (load l) = bitsb l.
  Hypothesis step1 : forall tw tk slot pre post r, length pre = sw ->
    body1 tw [regS tk; pre ++ hb slot ++ post; [bits_of_rc r]]
    = [regS (next_tk1 C tk); pre ++ hb (hxor C cx (rows01 C tk) (const_half C cnib c0 tw (rc_next r))) ++ post;
       [bits_of_rc (rc_next r)]].
  (* the set_tk2, set_tk3 and xor_tk1 bodies: rows 0-1 of the tweakey block are xored into the slot, the block moves on by [next] *)
  Notation xor_step body next := (forall tk slot pre post, length pre = sw ->
    body [regS tk; pre ++ hb slot ++ post] = [regS (next tk); pre ++ hb (hxor C cx slot (rows01 C tk)) ++ post]).
  Hypothesis step2 : xor_step body2 (next_tk2 C l2).
  Hypothesis step3 : xor_step body3 (next_tk3 C l3).
  Hypothesis stepx : xor_step bodyx (next_tk1 C).

  Notation set_tk1 := (set_tk1 C cx cnib bs load c0).
  Notation xor_tk1 := (xor_tk1 C cx bs load).
  Notation image hdr sched back := (hdr ++ concat (map hb sched) ++ back).

  Lemma tk_region : forall l, padb bool false bs (bitsb l) = regS (load (pad_to bs l)).
  Proof. intros l. rewrite reg_load by apply pad_to_length. symmetry. apply bits_pad_to. Qed.
  Lemma tk_region_full : forall l, length l = bs -> bitsb l = regS (load (pad_to bs l)).
  Proof. intros l H. rewrite (pad_to_id bs l H). symmetry. apply reg_load, H. Qed.

  (* at step2, step3, stepx the right-hand side is, by definition, ModelCipher.set_tk2, set_tk3, xor_tk1 *)
  Lemma passx_image : forall body next, xor_step body next ->
    forall n l hdr sched back, length hdr = sw -> n <= length sched ->
    pass bool body sw n (regS (load (pad_to bs l))) [] (image hdr sched back)
    = image hdr (sched_loop C n (fun e k _ => hxor C cx e k) next (load (pad_to bs l)) rc_init sched) back.
  Proof.
    intros body next Hstep n l. apply (pass_image C hb sw hb_len regS (fun _ => [])).
    intros tk _ e pre Hp. rewrite <- (app_nil_r (hb e)), <- (app_nil_r (hb (hxor C cx e (rows01 C tk)))).
    apply Hstep, Hp.
  Qed.
  Lemma pass1_image : forall tw n l hdr sched back, length hdr = sw -> n <= length sched ->
    pass bool (body1 tw) sw n (regS (load (pad_to bs l))) (rc0 bool false) (image hdr sched back)
    = image hdr (set_tk1 n l tw sched) back.
  Proof.
    intros tw n l. apply (pass_image C hb sw hb_len regS (fun r => [[bits_of_rc r]])).
    intros tk r e pre Hp.
    rewrite <- (app_nil_r (hb e)), <- (app_nil_r (hb (hxor C cx (rows01 C tk) (const_half C cnib c0 tw (rc_next r))))).
    apply step1, Hp.
  Qed.

  Lemma le_sched_loop : forall m upd next n tk r (sched : list (half C)),
    m <= length sched -> m <= length (sched_loop C n upd next tk r sched).
  Proof. intros. rewrite sloop_length. assumption. Qed.

  (* skinny*_set_key_inner on an image; [tweak] is what TK1 holds in the tweakable variant *)
  Theorem key_sched_model : forall tweak (key : list byte) hdr sched back r0,
    bs <= length key -> match tweak with Some tw => length tw = bs | None => True end ->
    length hdr = sw -> forall n, length sched = n -> (forall z, rounds_for z <= n) ->
    let ks' := set_key_inner C cx cnib l2 l3 bs load c0 rounds_for {| ks_rounds := r0; ks_sched := sched |} key tweak in
    key_sched bool false true body1 body2 body3 sw bs (rounds_for 1) (rounds_for 2) (rounds_for 3) (length key)
      (match tweak with Some _ => true | None => false end) (bitsb key)
      (match tweak with Some tw => bitsb tw | None => [] end) (image hdr sched back)
    = image (rbytes (N.to_nat (ks_rounds C ks')) ++ skipn 4 hdr) (ks_sched C ks') back.
  Proof.
    intros tweak key hdr sched back r0 Hk Ht Hh n <- HR. cbv zeta.
    assert (H4 : 4 <= length hdr) by (rewrite Hh; exact sw_hdr).
    assert (Hh' : forall R, length (rbytes R ++ skipn 4 hdr) = sw) by (intros R; rewrite rounds_hdr_length; assumption).
    assert (Hk1 : length (firstn bs key) = bs) by apply firstn_length_le, Hk.
    unfold key_sched, set_key_inner. cbn [ks_sched].
    (* five cases (tweaked or not, one / two / three tweakey blocks), all alike: the rounds field is stored, every tweakey
       block is the region of a loaded state, and each pass is the model's *)
    destruct tweak as [tw|]; cbn [negb]; destruct (Nat.eqb (length key) bs) eqn:E1;
      [| | | destruct (Nat.leb (length key) (2 * bs)) eqn:E2];
      cbn [mk_ks ks_rounds ks_sched]; rewrite Nat2N.id, set_rounds_image by exact H4;
      rewrite ?bits_skipn, ?bits_firstn, ?tk_region, ?(tk_region_full _ Hk1), ?(tk_region_full tw Ht);
      rewrite ?(tk_region_full (firstn bs (skipn bs key)))
        by (apply firstn_length_le; rewrite skipn_length; apply Nat.leb_gt in E2; lia);
      rewrite pass1_image, ?(passx_image _ _ step2), ?(passx_image _ _ step3) by (repeat apply le_sched_loop; auto); reflexivity.
  Qed.

  (* int skinny*_set_key(ks, key, size), every accepted size *)
  Theorem w_set_key_model : forall (key : list byte) hdr sched back r0 rest,
    bs <= length key <= 3 * bs -> length hdr = sw -> forall n, length sched = n -> (forall z, rounds_for z <= n) ->
    let res := set_key C cx cnib l2 l3 bs load c0 rounds_for {| ks_rounds := r0; ks_sched := sched |} (Some key)
                       (N.of_nat (length key)) in
    fst res = 1%N /\
    w_set_key bool false true body1 body2 body3 sw bs (rounds_for 1) (rounds_for 2) (rounds_for 3) (length key)
      (image hdr sched back :: bitsb key :: rest)
    = [image (rbytes (N.to_nat (ks_rounds C (snd res))) ++ skipn 4 hdr) (ks_sched C (snd res)) back; bitsb key].
  Proof.
    intros key hdr sched back r0 rest Hk Hh n Hs HR. cbv zeta. unfold set_key.
    rewrite (size_ok_true _ _ _ Hk), Nat2N.id, (pad_to_id _ key eq_refl). split; [reflexivity|].
    unfold w_set_key, reg. cbn [nth fst snd]. rewrite firstn_all2 by (apply Nat.eq_le_incl, map_length).
    f_equal. exact (key_sched_model None key hdr sched back r0 (proj1 Hk) I Hh n Hs HR).
  Qed.

  (* a field stored behind the schedule: Skinny*TweakedKey_t keeps the tweak at offset ksz *)
  Lemma image_front_len : forall hdr sched, length hdr = sw -> sw + sw * length sched = ksz ->
    length (hdr ++ concat (map hb sched)) = ksz.
  Proof. intros hdr sched Hh <-. rewrite app_length, Hh, (concat_map_length hb sw hb_len), (Nat.mul_comm sw). reflexivity. Qed.
  Lemma image_field_read : forall hdr sched x r n, length hdr = sw -> sw + sw * length sched = ksz -> length x = n ->
    firstn n (skipn ksz (image hdr sched (x ++ r))) = x.
  Proof.
    intros hdr sched x r n Hh Hk Hx. rewrite app_assoc, (skipn_app_exact _ _ ksz (image_front_len hdr sched Hh Hk)).
    apply firstn_app_exact, Hx.
  Qed.
  Lemma image_field_write : forall hdr sched x y r, length hdr = sw -> sw + sw * length sched = ksz -> length x = length y ->
    splice bool (image hdr sched (x ++ r)) ksz y = image hdr sched (y ++ r).
  Proof.
    intros hdr sched x y r Hh Hk Hxy.
    rewrite app_assoc, (splice_mid bool _ x r y ksz (image_front_len hdr sched Hh Hk) Hxy), <- app_assoc. reflexivity.
  Qed.

  (* int skinny*_set_tweaked_key(ks, key, size): the schedule under a zero TK1, and a zero stored tweak *)
  Theorem w_set_tweaked_key_model : forall (key prevtw : list byte) hdr sched r0 rest mrest,
    bs <= length key <= 2 * bs -> length hdr = sw -> forall n, length sched = n -> (forall z, rounds_for z <= n) ->
    sw + sw * n = ksz -> length prevtw = bs ->
    let res := set_tweaked_key C cx cnib l2 l3 bs load c0 rounds_for
                 {| tk_ks := {| ks_rounds := r0; ks_sched := sched |}; tk_tweak := prevtw |} (Some key) (N.of_nat (length key)) in
    fst res = 1%N /\
    w_set_tweaked_key bool false true body1 body2 body3 sw bs ksz (rounds_for 1) (rounds_for 2) (rounds_for 3) (length key)
      (image hdr sched (bitsb prevtw ++ rest) :: bitsb key :: mrest)
    = [image (rbytes (N.to_nat (ks_rounds C (tk_ks C (snd res)))) ++ skipn 4 hdr) (ks_sched C (tk_ks C (snd res)))
             (bitsb (tk_tweak C (snd res)) ++ rest);
       bitsb key].
  Proof.
    intros key prevtw hdr sched r0 rest mrest Hk Hh n Hs HR Hz Hp. cbv zeta. unfold set_tweaked_key.
    rewrite (size_ok_true _ _ _ Hk), Nat2N.id, (pad_to_id _ key eq_refl). split; [reflexivity|].
    unfold w_set_tweaked_key, reg. cbv zeta. cbn [nth fst snd tk_ks tk_tweak].
    rewrite firstn_all2 by (apply Nat.eq_le_incl, map_length).
    rewrite <- (bits_zeros bs), image_field_write by (rewrite ?bitsB_length, ?zeros_length, ?Hs; auto).
    f_equal. exact (key_sched_model (Some (zeros bs)) key hdr sched _ r0 (proj1 Hk) (zeros_length bs) Hh n Hs HR).
  Qed.

  (* skinny*_set_tweak: xor the previous tweak out of the first R slots, the new one in *)
  Theorem w_set_tweak_model : forall R tsz (null : bool) (twarg prevtw : list byte) hdr sched rest mrest,
    length hdr = sw -> forall n, length sched = n -> sw + sw * n = ksz -> length prevtw = bs -> R <= n ->
    let newtw := if null then zeros bs else pad_to bs (firstn tsz twarg) in
    w_set_tweak bool false bodyx sw bs ksz R tsz null (image hdr sched (bitsb prevtw ++ rest) :: bitsb twarg :: mrest)
    = [image hdr (xor_tk1 R newtw (xor_tk1 R prevtw sched)) (bitsb newtw ++ rest); bitsb twarg].
  Proof.
    intros R tsz null twarg prevtw hdr sched rest mrest Hh n <- Hz Hp HR newtw.
    assert (Hn : length newtw = bs) by (unfold newtw; destruct null; [apply zeros_length | apply pad_to_length]).
    unfold w_set_tweak, reg. cbn [nth].
    replace (if null then repeat (zbyte bool false) bs else padb bool false bs (firstn tsz (bitsb twarg))) with (bitsb newtw)
      by (unfold newtw; destruct null; [apply bits_zeros | rewrite bits_firstn; apply bits_pad_to]).
    rewrite image_field_read, image_field_write by (rewrite ?bitsB_length; congruence).
    rewrite (tk_region_full prevtw Hp), (tk_region_full newtw Hn), !(passx_image _ _ stepx) by (repeat apply le_sched_loop; assumption).
    reflexivity.
  Qed.
End KeyModel.

(* a theorem [T] of Section KeyModel that rests on all of the section but bodyx, at SKINNY-128 and at SKINNY-64 *)
Notation at_skinny128 T :=
  (T byte bxor8 cnib8 (lfsr2_8 bool xorb) (lfsr3_8 bool xorb) 16 load128 byte0 m128_rounds (KernelSpecs2.half_bytes128 bool)
     (reg_of_state128 bool) _ _ _ 8 (proj1 (Nat.leb_le 4 8) eq_refl) (half_bytes128_length bool) reg_of_state128_load128
     k128_tk1_body_step (k128_xor_body_step bool xorb false _) (k128_xor_body_step bool xorb false _)).
Notation at_skinny64 T :=
  (T nib bxor4 cnib4 (lfsr2_4 bool xorb) (lfsr3_4 bool xorb) 8 load64 nib0 m64_rounds (KernelSpecs2.half_bytes64 bool)
     (reg_of_state64 bool) _ _ _ 4 (le_n 4) (half_bytes64_length bool) reg_of_state64_load64
     k64_tk1_body_step (k64_xor_body_step bool xorb false _) (k64_xor_body_step bool xorb false _)).

Section KeyModel128.
  Notation hb := (KernelSpecs2.half_bytes128 bool).
  Notation l2 := (lfsr2_8 bool xorb).
  Notation l3 := (lfsr3_8 bool xorb).
  Notation KS := (key_sched bool false true (k128_tk1_body bool xorb false true) (k128_tk2_body bool xorb false)
                            (k128_tk3_body bool xorb false) 8 16 40 48 56).

  Theorem key_sched128_model : forall (key hdr : list byte) (sched : list (half byte)) back r0,
    16 <= length key <= 48 -> length hdr = 8 -> length sched = 56 ->
    let ks' := set_key_inner byte bxor8 cnib8 l2 l3 16 load128 byte0 m128_rounds {| ks_rounds := r0; ks_sched := sched |} key None in
    KS (length key) false (bitsb key) [] (bitsb hdr ++ concat (map hb sched) ++ back)
    = (rbytes (N.to_nat (ks_rounds byte ks')) ++ skipn 4 (bitsb hdr)) ++ concat (map hb (ks_sched byte ks')) ++ back.
  Proof.
    intros key hdr sched back r0 Hk Hh Hs.
    exact (at_skinny128 key_sched_model None key (bitsb hdr) sched back r0 (proj1 Hk) I
             (eq_trans (bitsB_length hdr) Hh) 56 Hs m128_rounds_le).
  Qed.
End KeyModel128.

(* the observable result of skinny128_set_key(ks, key, size) on the byte image of a model schedule is the byte image of the
   model's (hence, ProofsSkinny.m128_set_key_spec / _padding, the specification's) result, for every accepted size *)
Theorem w_set_key128_model : forall (key hdr : list byte) (sched : list (half byte)) back r0 rest,
  16 <= length key <= 48 -> length hdr = 8 -> length sched = 56 ->
  let res := m128_set_key {| ks_rounds := r0; ks_sched := sched |} (Some key) (N.of_nat (length key)) in
  fst res = 1%N /\
  w_set_key128 bool xorb false true (length key)
    ((bitsb hdr ++ concat (map (KernelSpecs2.half_bytes128 bool) sched) ++ back) :: bitsb key :: rest)
  = [ (rbytes (N.to_nat (ks_rounds byte (snd res))) ++ skipn 4 (bitsb hdr))
        ++ concat (map (KernelSpecs2.half_bytes128 bool) (ks_sched byte (snd res))) ++ back;
      bitsb key ].
Proof.
  intros key hdr sched back r0 rest Hk Hh Hs.
  exact (at_skinny128 w_set_key_model key (bitsb hdr) sched back r0 rest Hk (eq_trans (bitsB_length hdr) Hh) 56 Hs m128_rounds_le).
Qed.
Print Assumptions w_set_key128_model.

Section KeyModel64.
  Notation hb := (KernelSpecs2.half_bytes64 bool).
  Notation l2 := (lfsr2_4 bool xorb).
  Notation l3 := (lfsr3_4 bool xorb).
  Notation KS := (key_sched bool false true (k64_tk1_body bool xorb false true) (k64_tk2_body bool xorb false)
                            (k64_tk3_body bool xorb false) 4 8 32 36 40).

  Theorem key_sched64_model : forall (key hdr : list byte) (sched : list (half nib)) back r0,
    8 <= length key <= 24 -> length hdr = 4 -> length sched = 40 ->
    let ks' := set_key_inner nib bxor4 cnib4 l2 l3 8 load64 nib0 m64_rounds {| ks_rounds := r0; ks_sched := sched |} key None in
    KS (length key) false (bitsb key) [] (bitsb hdr ++ concat (map hb sched) ++ back)
    = (rbytes (N.to_nat (ks_rounds nib ks')) ++ skipn 4 (bitsb hdr)) ++ concat (map hb (ks_sched nib ks')) ++ back.
  Proof.
    intros key hdr sched back r0 Hk Hh Hs.
    exact (at_skinny64 key_sched_model None key (bitsb hdr) sched back r0 (proj1 Hk) I
             (eq_trans (bitsB_length hdr) Hh) 40 Hs m64_rounds_le).
  Qed.
End KeyModel64.

(* the observable result of skinny64_set_key(ks, key, size) on the byte image of a model schedule is the byte image of the
   model's (hence, ProofsSkinny.m64_set_key_spec / _padding, the specification's) result, for every accepted size *)
Theorem w_set_key64_model : forall (key hdr : list byte) (sched : list (half nib)) back r0 rest,
  8 <= length key <= 24 -> length hdr = 4 -> length sched = 40 ->
  let res := m64_set_key {| ks_rounds := r0; ks_sched := sched |} (Some key) (N.of_nat (length key)) in
  fst res = 1%N /\
  w_set_key64 bool xorb false true (length key)
    ((bitsb hdr ++ concat (map (KernelSpecs2.half_bytes64 bool) sched) ++ back) :: bitsb key :: rest)
  = [ (rbytes (N.to_nat (ks_rounds nib (snd res))) ++ skipn 4 (bitsb hdr))
        ++ concat (map (KernelSpecs2.half_bytes64 bool) (ks_sched nib (snd res))) ++ back;
      bitsb key ].
Proof.
  intros key hdr sched back r0 rest Hk Hh Hs.
  exact (at_skinny64 w_set_key_model key (bitsb hdr) sched back r0 rest Hk (eq_trans (bitsB_length hdr) Hh) 40 Hs m64_rounds_le).
Qed.
Print Assumptions w_set_key64_model.
