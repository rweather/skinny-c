(* WholeProc.v — checking a caller (CTR mode, parallel ECB) whose callee (the block function) is NOT inlined but kept as a
   procedure call statement
        SStore rout offo n (ECall f (EConcat [ELoad rin offi n; ELoad rks offk kn]))
   whose meaning is a parameter cB.  The flattened caller is cut at the calls: the call-free runs are checked symbolically
   against specification steps (check_kernel); a run of calls is taken as it is, only its stores are checked to be in bounds. *)
From Coq Require Import List Bool NArith Arith Lia.
From Skinny Require Import IR SIR Anf IRCheck KernelSpecs KernelHom SIRCheck WholeSpecs SIRProofs.
Import ListNotations.

(* function numbers below 10 are the S-box tables, which KernelSpecs.callf_spec interprets (0 .. 4 are in use); the translator
   numbers the procedures it keeps as calls from 10 on *)
Definition is_pcall (s : stmt) : bool :=
  match s with SStore _ _ _ (ECall f _) => Nat.leb 10 f | _ => false end.

Fixpoint expr_calls (e : expr) : bool :=
  match e with
  | EConst _ _ | ELocal _ | ELoad _ _ _ => false
  | ENot a | EShl _ a _ | EShrL _ a _ | EShrA _ a _ | ESlice a _ _ | EZext _ a | ESext _ a => expr_calls a
  | EBin _ a b | EAdd a b => expr_calls a || expr_calls b
  | EConcat l => existsb expr_calls l
  | ECall _ _ => true
  end.
(* no call of any number, the S-box tables (f < 10) included: such a statement means the same under every cB (exec_nocall).
   The CTR and parallel-ECB callers do no table look-ups, so nothing is lost *)
Definition stmt_nocall (s : stmt) : bool :=
  match s with SLocal _ e | SStore _ _ _ e => negb (expr_calls e) end.

Section NoCall.
  Variables (c1 c2 : nat -> list bool -> list bool).
  Lemma eval_nocall : forall m loc e, expr_calls e = false -> evalB c1 m loc e = evalB c2 m loc e.
  Proof.
    intros m loc e. unfold evalB. induction e using expr_ind2; cbn [eval expr_calls]; intros Hc; try reflexivity;
      try (rewrite IHe by exact Hc; reflexivity);
      try (apply orb_false_iff in Hc; destruct Hc as [H1 H2]; rewrite IHe1, IHe2 by assumption; reflexivity).
    - f_equal. induction H as [|a l Ha _ IH]; [reflexivity|]. cbn [existsb map] in *.
      apply orb_false_iff in Hc. destruct Hc as [H1 H2]. rewrite (Ha H1), (IH H2). reflexivity.
    - discriminate.
  Qed.
  Lemma exec_nocall : forall p st, forallb stmt_nocall p = true -> execB c1 p st = execB c2 p st.
  Proof.
    induction p as [|s p IH]; intros st H; [reflexivity|].
    cbn [forallb] in H. apply andb_true_iff in H. destruct H as [Hs Hp].
    unfold execB, exec. cbn [fold_left].
    assert (E : exec1 bool xorb andb false true c1 st s = exec1 bool xorb andb false true c2 st s).
    { destruct st as [m loc]. destruct s as [x e|r off n e]; cbn [exec1 stmt_nocall] in *; apply negb_true_iff in Hs;
        rewrite (eval_nocall m loc e Hs : eval bool xorb andb false true c1 m loc e = _); reflexivity. }
    rewrite E. apply IH. exact Hp.
  Qed.
End NoCall.

Fixpoint psplit_from (p : list stmt) (cur : list stmt) (k : bool) : list (bool * list stmt) :=
  match p with
  | [] => match cur with [] => [] | _ => [(k, rev cur)] end
  | s :: p' =>
      if Bool.eqb (is_pcall s) k then psplit_from p' (s :: cur) k
      else match cur with
           | [] => psplit_from p' [s] (is_pcall s)
           | _ => (k, rev cur) :: psplit_from p' [s] (is_pcall s)
           end
  end.
Definition psplit (p : list stmt) : list (bool * list stmt) := psplit_from p [] false.
Lemma psplit_from_concat : forall p cur k, concat (map snd (psplit_from p cur k)) = rev cur ++ p.
Proof.
  induction p as [|s p IH]; intros cur k; cbn [psplit_from].
  - destruct cur; cbn [map concat snd]; rewrite ?app_nil_r; reflexivity.
  - destruct (Bool.eqb (is_pcall s) k).
    + rewrite IH. cbn [rev]. rewrite <- app_assoc. reflexivity.
    + destruct cur as [|c cur]; cbn [map concat snd]; rewrite IH; reflexivity.
Qed.
Lemma psplit_concat : forall p, concat (map snd (psplit p)) = p.
Proof. intros p. unfold psplit. rewrite psplit_from_concat. reflexivity. Qed.

Definition pcall_eqb (s1 s2 : stmt) : bool :=
  match s1, s2 with
  | SStore r1 o1 n1 (ECall f1 (EConcat [ELoad a1 b1 c1; ELoad d1 e1 g1])),
    SStore r2 o2 n2 (ECall f2 (EConcat [ELoad a2 b2 c2; ELoad d2 e2 g2])) =>
      Nat.eqb r1 r2 && Nat.eqb o1 o2 && Nat.eqb n1 n2 && Nat.eqb f1 f2 && Nat.eqb a1 a2 && Nat.eqb b1 b2 && Nat.eqb c1 c2
      && Nat.eqb d1 d2 && Nat.eqb e1 e2 && Nat.eqb g1 g2
  (* a callee with a second data argument (MANTIS: the per-block tweak) *)
  | SStore r1 o1 n1 (ECall f1 (EConcat [ELoad a1 b1 c1; ELoad t1 u1 v1; ELoad d1 e1 g1])),
    SStore r2 o2 n2 (ECall f2 (EConcat [ELoad a2 b2 c2; ELoad t2 u2 v2; ELoad d2 e2 g2])) =>
      Nat.eqb r1 r2 && Nat.eqb o1 o2 && Nat.eqb n1 n2 && Nat.eqb f1 f2 && Nat.eqb a1 a2 && Nat.eqb b1 b2 && Nat.eqb c1 c2
      && Nat.eqb t1 t2 && Nat.eqb u1 u2 && Nat.eqb v1 v2 && Nat.eqb d1 d2 && Nat.eqb e1 e2 && Nat.eqb g1 g2
  | _, _ => false
  end.
Lemma pcall_eqb_eq : forall s1 s2, pcall_eqb s1 s2 = true -> s1 = s2.
Proof.
  intros s1 s2 H. unfold pcall_eqb in H.
  repeat match type of H with
         | match ?x with _ => _ end = true => destruct x; try discriminate
         end.
  all: repeat (apply andb_true_iff in H; destruct H as [H ?]).
  all: repeat match goal with E : Nat.eqb _ _ = true |- _ => apply Nat.eqb_eq in E end.
  all: subst; reflexivity.
Qed.
Fixpoint pcalls_eqb (l1 l2 : list stmt) : bool :=
  match l1, l2 with
  | [], [] => true
  | a :: l1', b :: l2' => pcall_eqb a b && pcalls_eqb l1' l2'
  | _, _ => false
  end.
Lemma pcalls_eqb_eq : forall l1 l2, pcalls_eqb l1 l2 = true -> l1 = l2.
Proof.
  induction l1 as [|a l1 IH]; intros [|b l2] H; try discriminate; [reflexivity|].
  cbn [pcalls_eqb] in H. apply andb_true_iff in H. destruct H as [H1 H2].
  rewrite (pcall_eqb_eq a b H1), (IH l2 H2). reflexivity.
Qed.

(* The mixed checker.  A specification is a list of entries: [None, f] = a specification step for a call-free run,
   [Some l, _] = the run is exactly the procedure calls l (its meaning is their execution under cB) *)
Section Mixed.
  Variable sizes : list nat.
  Notation callP := (callf_spec poly pxor pand pzero pone).
  Notation callB := (callf_spec bool xorb andb false true).
  Definition entry (B : Type) : Type := (option (list stmt) * (mem B -> mem B))%type.

  Fixpoint check_mixed (runs : list (bool * list stmt)) (eP : list (entry poly)) : bool :=
    match runs, eP with
    | [], [] => true
    | (true, run) :: runs', (Some l, _) :: eP' =>
        pcalls_eqb run l && stores_in_bounds sizes run && locals_closed run && check_mixed runs' eP'
    | (false, run) :: runs', (None, f) :: eP' =>
        check_kernel callP sizes run f && stores_in_bounds sizes run && locals_closed run &&
        forallb stmt_nocall run && check_mixed runs' eP'
    | _, _ => false
    end.

  Variable cB : nat -> list bool -> list bool.
  Definition entry_sem (e : entry bool) (m : mem bool) : mem bool :=
    match fst e with Some l => fst (execB cB l (m, [])) | None => snd e m end.
  Definition mixed_sem (eB : list (entry bool)) (m : mem bool) : mem bool := fold_left (fun acc e => entry_sem e acc) eB m.
  Definition entry_hom (a : entry poly) (b : entry bool) : Prop :=
    fst a = fst b /\ (fst a = None -> spec_hom sizes (snd a) (snd b)).

  Lemma entry_sem_none : forall (f : mem bool -> mem bool) m, entry_sem (None, f) m = f m.
  Proof. reflexivity. Qed.
  Lemma mixed_sem_nil : forall m, mixed_sem [] m = m.
  Proof. reflexivity. Qed.
  Lemma mixed_sem_cons : forall e l m, mixed_sem (e :: l) m = mixed_sem l (entry_sem e m).
  Proof. reflexivity. Qed.
  Lemma mixed_sem_app : forall a b m, mixed_sem (a ++ b) m = mixed_sem b (mixed_sem a m).
  Proof. intros. apply fold_left_app. Qed.

  Theorem check_mixed_sound : forall runs eP eB, Forall2 entry_hom eP eB ->
    check_mixed runs eP = true ->
    forall m loc, shaped sizes m ->
    fst (execB cB (concat (map snd runs)) (m, loc)) = mixed_sem eB m.
  Proof.
    induction runs as [|[k run] runs IH]; intros eP eB HF Hk m loc Hm.
    - destruct eP; [|discriminate]. inversion HF. reflexivity.
    - cbn [map concat snd]. rewrite execB_app. cbn [check_mixed] in Hk.
      destruct eP as [|[o fP] eP]; [destruct k; discriminate|].
      inversion HF as [|a [o' fB] eP' eB' [Ho Hf] HF']; subst. cbn [fst snd] in Ho, Hf. subst o'. rewrite mixed_sem_cons.
      assert (Hrun : check_mixed runs eP = true /\ fst (execB cB run (m, loc)) = entry_sem (o, fB) m).
      { destruct k, o as [l|]; try discriminate; rewrite !andb_true_iff in Hk.
        + destruct Hk as [[[K1 _] K3] K4]. apply pcalls_eqb_eq in K1. subst l.
          split; [exact K4 | exact (execB_closed cB run m loc K3)].
        + destruct Hk as [[[[K1 _] K3] K4] K5]. split; [exact K5|].
          rewrite (execB_closed cB run m loc K3), (exec_nocall cB callB run (m, []) K4).
          apply (check_kernel_sound callP callB sizes run fP fB callf_spec_hom (Hf eq_refl) K1 m Hm). }
      destruct Hrun as [K' Ec]. pose proof (exec_shaped cB sizes run m loc Hm) as Sh.
      destruct (execB cB run (m, loc)) as [m1 loc1]. cbn [fst] in Sh, Ec. subst m1. apply (IH eP eB' HF' K' _ loc1 Sh).
  Qed.

  Definition check_proc (code : list stmt) (eP : list (entry poly)) : bool := check_mixed (psplit code) eP.
  Theorem check_proc_sound : forall code eP eB, Forall2 entry_hom eP eB -> check_proc code eP = true ->
    forall m, shaped sizes m -> fst (execB cB code (m, [])) = mixed_sem eB m.
  Proof.
    intros code eP eB HF Hk m Hm. rewrite <- (psplit_concat code) at 1.
    apply (check_mixed_sound (psplit code) eP eB HF Hk m [] Hm).
  Qed.
End Mixed.

Print Assumptions check_proc_sound.

(* the final form of an obligation about a caller: the translated function, run by the reference interpreter under ANY
   interpretation cB of the procedure call, computes the specification program (the procedure calls executed as they stand) *)
Theorem proc_final : forall fields code fuel pl sh pl' sh' c t sizes eP eB,
  fields_okb fields = true ->
  flat fields fuel pl sh code = Some (pl', sh', c, t) ->
  Forall2 (entry_hom sizes) eP eB -> check_proc sizes c eP = true ->
  forall (cB : nat -> list bool -> list bool) (m : mem bool), shaped sizes m -> Inv fields sh m ->
  interp fields cB fuel pl (m, []) code = Some (pl', execB cB c (m, []), t)
  /\ fst (execB cB c (m, [])) = mixed_sem cB eB m.
Proof.
  intros fields code fuel pl sh pl' sh' c t sizes eP eB Hf Hfl HF Hk cB m Hm HI. split.
  - exact (run_final fields cB code fuel pl sh pl' sh' c t Hf Hfl m HI).
  - exact (check_proc_sound sizes cB c eP eB HF Hk m Hm).
Qed.
