(* WholeParM.v — the WHOLE function mantis_parallel_ecb_crypt of src/mantis-parallel.c with both callees as procedure calls that
   take a SECOND data argument, the tweak: the vector function on a whole group (parallel_size bytes of input and of tweaks), the
   single-block function mantis_ecb_crypt_tweaked on a left-over block.  The flattened function must be exactly the expected list
   of calls — groups first, then single blocks, output / input / tweak pointers advancing together —, and under the contracts
   "block function = E tweak block" and "vector function = E on every (tweak, block) pair of the group" the output is
   ModelCtr.vec_batch: block i processed under the i-th tweak (property C07 for MANTIS, all data at that configuration).
   Memory: 0 = output, 1 = input, 2 = tweaks, 3 = the parallel-ECB object, 4 = the key schedule object, then whatever else. *)
From Coq Require Import List Arith Lia.
From Skinny Require Import ListFacts Bits IR SIR Anf IRCheck KernelHom2 SIRProofs ModelCtr ProofsCtr WholeBridge WholeProc
                           WholeCtr WholeCtrModel WholePar.
Import ListNotations.

Section ParSpecM.
  Variable kn : nat.
  Definition pcallM (fno pos n : nat) : stmt :=
    SStore 0 pos n (ECall fno (EConcat [ELoad 1 pos n; ELoad 2 pos n; ELoad 4 0 kn])).
  Fixpoint chunk_callsM (l : list (nat * nat)) (pos : nat) : list stmt :=
    match l with
    | [] => []
    | (n, fno) :: l' => pcallM fno pos n :: chunk_callsM l' (pos + n)
    end.
  Definition par_callsM (has_vt : bool) (psize bs fvec fblk size : nat) : list stmt :=
    chunk_callsM (par_chunks has_vt psize bs fvec fblk size) 0.
  Definition pspecM (B : Type) (has_vt : bool) (psize bs fvec fblk size : nat) : list (entry B) :=
    match par_callsM has_vt psize bs fvec fblk size with
    | [] => []
    | l => [(Some l, ident B)]
    end.
End ParSpecM.

Theorem pparM_final : forall fields code fuel pl sh pl' sh' c t sizes kn has_vt psize bs fvec fblk size,
  fields_okb fields = true ->
  flat fields fuel pl sh code = Some (pl', sh', c, t) ->
  check_proc sizes c (pspecM kn poly has_vt psize bs fvec fblk size) = true ->
  forall (cB : nat -> list bool -> list bool) (m : mem bool), shaped sizes m -> SIRProofs.Inv fields sh m ->
  interp fields cB fuel pl (m, []) code = Some (pl', execB cB c (m, []), t)
  /\ fst (execB cB c (m, [])) = fst (execB cB (par_callsM kn has_vt psize bs fvec fblk size) (m, [])).
Proof.
  intros fields code fuel pl sh pl' sh' c t sizes kn has_vt psize bs fvec fblk size.
  change (pspecM kn poly has_vt psize bs fvec fblk size) with (calls_spec poly (par_callsM kn has_vt psize bs fvec fblk size)).
  apply calls_final.
Qed.

Section ChunksM.
  Variable kn : nat.
  Variable cB : nat -> list bool -> list bool.
  Variable G : nat -> list byte -> list byte -> list byte.        (* call number -> tweaks -> data -> result *)
  Variables (EO KS : list (list bool)) (rest : mem bool) (inp tw : list byte).
  Hypothesis HKS8 : bytes8 KS.
  Hypothesis Hkn : kn <= length KS.
  Hypothesis Htw : length tw = length inp.

  Fixpoint chunk_outM (l : list (nat * nat)) (tws data : list byte) : list byte :=
    match l with
    | [] => []
    | (n, fno) :: l' => G fno (firstn n tws) (firstn n data) ++ chunk_outM l' (skipn n tws) (skipn n data)
    end.
  Definition contractM (l : list (nat * nat)) : Prop :=
    forall n fno, In (n, fno) l -> forall t x : list byte, length t = n -> length x = n ->
      cB fno (concat (bitsB x) ++ concat (bitsB t) ++ concat (firstn kn KS)) = concat (bitsB (G fno t x)) /\ length (G fno t x) = n.

  Lemma chunk_outM_length : forall l tws data, contractM l -> total l <= length data -> total l <= length tws ->
    length (chunk_outM l tws data) = total l.
  Proof.
    induction l as [|[n fno] l IH]; intros tws data Hc Ht Ht2; [reflexivity|]. cbn [chunk_outM total] in *.
    destruct (Hc n fno (or_introl eq_refl) (firstn n tws) (firstn n data)) as [_ Hl]; [rewrite firstn_length; lia..|].
    rewrite app_length, Hl, IH; [reflexivity | intros n' f' Hin; apply Hc; right; exact Hin | rewrite skipn_length; lia..].
  Qed.

  Notation MEM O := ((O : list (list bool)) :: bitsB inp :: bitsB tw :: EO :: KS :: rest).

  Theorem chunksM_exec : forall l pos O, contractM l -> pos + total l <= length inp -> length O = length inp ->
    execB cB (chunk_callsM kn l pos) (MEM O, []) = (MEM (spl O pos (bitsB (chunk_outM l (skipn pos tw) (skipn pos inp)))), []).
  Proof.
    induction l as [|[n fno] l IH]; intros pos O Hc Ht HO.
    - cbn [chunk_callsM chunk_outM map]. rewrite splice_nil. reflexivity.
    - cbn [chunk_callsM chunk_outM total] in *.
      assert (Hc' : contractM l) by (intros n' f' Hin; apply Hc; right; exact Hin).
      destruct (Hc n fno (or_introl eq_refl) (firstn n (skipn pos tw)) (firstn n (skipn pos inp))) as [Hcb Hl];
        [rewrite firstn_length, skipn_length; lia..|].
      unfold pcallM at 1.
      rewrite (exec_call_store cB _ _ _ _ _ _ _ (G fno (firstn n (skipn pos tw)) (firstn n (skipn pos inp))) _ Hl);
        cbn [nth set_nth map concat evalB eval].
      + rewrite IH; [ | exact Hc' | lia | rewrite splice_length; [exact HO | rewrite bitsB_length, Hl; lia]].
        rewrite <- splice_bits_app, Hl, !skipn_add; [reflexivity|].
        rewrite Hl, chunk_outM_length; [lia | exact Hc' | rewrite !skipn_length; lia..].
      + lia.
      + rewrite app_nil_r, !load_slice; cbn [nth]; try apply bits_len8; try exact HKS8; try (rewrite bitsB_length; lia); try lia.
        rewrite !slice_bits. exact Hcb.
  Qed.
End ChunksM.

(* chunk_outM G is convertible to chunk_outT G of WholePar.v, and GparM to GparT: grouping does not matter *)
Section ParBlocksM.
  Variable E : list byte -> list byte -> list byte.           (* tweak -> block -> block *)
  Variables (bs psize fvec fblk : nat).
  Hypothesis Hbs : 0 < bs.
  Hypothesis Hps : 0 < psize.
  Hypothesis Hpm : psize mod bs = 0.
  Hypothesis Hne : fvec <> fblk.
  Definition GparM (f : nat) (t x : list byte) : list byte :=
    if Nat.eqb f fvec then vec_batch bs E t x else E t x.
  Notation cout := (chunk_outM GparM).

  Theorem par_chunk_outM_blocks : forall has_vt (tws inp : list byte), length inp mod bs = 0 -> length tws = length inp ->
    cout (par_chunks has_vt psize bs fvec fblk (length inp)) tws inp = vec_batch bs E tws inp.
  Proof. exact (par_chunk_outT_blocks E bs psize fvec fblk Hbs Hps Hpm Hne). Qed.
End ParBlocksM.
Print Assumptions pparM_final.
Print Assumptions chunksM_exec.
Print Assumptions par_chunk_outM_blocks.

Theorem pparM_model : forall fields code fuel pl sh pl' sh' c t kn has_vt psize bs fvec fblk size (rsz : list nat),
  fields_okb fields = true ->
  flat fields fuel pl sh code = Some (pl', sh', c, t) ->
  check_proc (size :: size :: size :: rsz) c (pspecM kn poly has_vt psize bs fvec fblk size) = true ->
  forall (cB : nat -> list bool -> list bool) (E : list byte -> list byte -> list byte) (out inp tw : list byte)
         (EO KS : list (list bool)) (rest : mem bool),
  0 < bs -> 0 < psize -> psize mod bs = 0 -> size mod bs = 0 -> fvec <> fblk -> kn <= length KS -> bytes8 KS ->
  length out = size -> length inp = size -> length tw = size ->
  (forall t' blk, length t' = bs -> length blk = bs -> length (E t' blk) = bs) ->
  (forall t' blk, length t' = bs -> length blk = bs ->
     cB fblk (concat (bitsB blk) ++ concat (bitsB t') ++ concat (firstn kn KS)) = concat (bitsB (E t' blk))) ->
  (forall tg grp, length tg = psize -> length grp = psize ->
     cB fvec (concat (bitsB grp) ++ concat (bitsB tg) ++ concat (firstn kn KS)) = concat (bitsB (vec_batch bs E tg grp))) ->
  let m0 : mem bool := bitsB out :: bitsB inp :: bitsB tw :: EO :: KS :: rest in
  shaped (size :: size :: size :: rsz) m0 -> SIRProofs.Inv fields sh m0 ->
  exists st', interp fields cB fuel pl (m0, []) code = Some (pl', st', t)
    /\ fst st' = bitsB (vec_batch bs E tw inp) :: bitsB inp :: bitsB tw :: EO :: KS :: rest.
Proof.
  intros fields code fuel pl sh pl' sh' c t kn has_vt psize bs fvec fblk size rsz Hf Hfl Hk cB E out inp tw EO KS rest
         Hbs Hps Hpm Hsm Hne Hkn HKS8 Ho Hi Htw HE Hcblk Hcvec m0 Hm HI.
  destruct (pparM_final fields code fuel pl sh pl' sh' c t _ kn has_vt psize bs fvec fblk size Hf Hfl Hk cB m0 Hm HI) as [Hint Hsem].
  exists (execB cB c (m0, [])). split; [exact Hint|]. rewrite Hsem. unfold par_callsM, m0.
  pose proof (vec_batch_length bs E Hbs HE) as HVlen. destruct Hi.
  rewrite (chunksM_exec kn cB (GparM E bs fvec) EO KS rest inp tw HKS8 Hkn Htw).
  - cbn [fst skipn]. f_equal.
    rewrite (par_chunk_outM_blocks E bs psize fvec fblk Hbs Hps Hpm Hne has_vt tw inp Hsm Htw).
    destruct (mod0_mult _ _ Hbs Hsm) as (k & Hk').
    apply splice_whole. rewrite !bitsB_length, (HVlen k), Ho, Hk' by (rewrite ?Htw; exact Hk'). reflexivity.
  - intros n fno Hin t' x Ht' Hx. destruct (in_par_chunks _ _ _ _ _ _ _ _ Hin) as [[= -> ->]|[= -> ->]]; unfold GparM.
    + rewrite Nat.eqb_refl. split; [apply Hcvec; assumption|].
      destruct (mod0_mult _ _ Hbs Hpm) as (p & Hp). rewrite Hp in Ht', Hx |- *. apply HVlen; assumption.
    + rewrite (proj2 (Nat.eqb_neq fblk fvec)) by congruence. split; [apply Hcblk; assumption | apply HE; assumption].
  - rewrite (total_par_chunks bs psize fvec fblk Hbs Hps Hpm has_vt _ Hsm). apply le_n.
  - rewrite bitsB_length. exact Ho.
Qed.
Print Assumptions pparM_model.
