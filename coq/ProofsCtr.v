(* ProofsCtr.v — the CTR model (ModelCtr.v): the byte-wise counter increment is big-endian addition
   modulo 2^(8n); the buffered keystream state machine refines the textbook CTR stream;
   the parallel ECB loops equal block-by-block ECB. *)
From Coq Require Import List NArith Arith Lia.
From Skinny Require Import ListFacts Bits ModelCipher ModelCtr ProofsSkinny.
Import ListNotations.

Definition be_value (l : list byte) : N :=
  fold_left (fun acc b => (256 * acc + N_of_byte b)%N) l 0%N.
Fixpoint le_bytes (n : nat) (v : N) : list byte :=
  match n with O => [] | S n' => byte_of_N v :: le_bytes n' (N.shiftr v 8) end.
Definition be_bytes (n : nat) (v : N) : list byte := rev (le_bytes n v).
(* big-endian addition modulo 2^(8 * length c) *)
Definition ctr_add (c : list byte) (k : N) : list byte :=
  be_bytes (length c) (be_value c + k).

Lemma pow256_S n : (2 ^ (8 * N.of_nat (S n)) = 256 * 2 ^ (8 * N.of_nat n))%N.
Proof.
  rewrite Nat2N.inj_succ, N.mul_succ_r, N.add_comm, N.pow_add_r. reflexivity.
Qed.
Lemma pow256_nz n : (2 ^ (8 * N.of_nat n) <> 0)%N.
Proof. apply N.pow_nonzero. discriminate. Qed.

Fixpoint le_value (l : list byte) : N :=
  match l with [] => 0%N | b :: r => (N_of_byte b + 256 * le_value r)%N end.

Lemma be_value_snoc l b : be_value (l ++ [b]) = (256 * be_value l + N_of_byte b)%N.
Proof. unfold be_value. rewrite fold_left_app. reflexivity. Qed.

Lemma be_value_rev l : be_value (rev l) = le_value l.
Proof.
  induction l as [|b r IH]; cbn [rev le_value]; [reflexivity|].
  rewrite be_value_snoc, IH. lia.
Qed.

Lemma be_value_le l : be_value l = le_value (rev l).
Proof. rewrite <- be_value_rev, rev_involutive. reflexivity. Qed.

Lemma le_value_lt l : (le_value l < 2 ^ (8 * N.of_nat (length l)))%N.
Proof.
  induction l as [|b r IH]; [cbn; lia|].
  cbn [le_value length]. rewrite pow256_S. pose proof (N_of_byte_lt256 b). lia.
Qed.

Lemma le_bytes_length n : forall v, length (le_bytes n v) = n.
Proof. induction n as [|n IH]; intros v; cbn; [reflexivity|]. now rewrite IH. Qed.

Lemma le_value_le_bytes n : forall v, le_value (le_bytes n v) = (v mod 2 ^ (8 * N.of_nat n))%N.
Proof.
  induction n as [|n IH]; intros v.
  - cbn. now rewrite N.mod_1_r.
  - cbn [le_bytes le_value]. rewrite N_of_byte_of_N, IH, N.shiftr_div_pow2, pow256_S.
    change (2 ^ 8)%N with 256%N.
    rewrite N.mod_mul_r; [reflexivity | discriminate | apply pow256_nz].
Qed.

(* one byte off a value split at its low byte *)
Lemma le_bytes_S n a q :
  le_bytes (S n) (a + 256 * q) = byte_of_N a :: le_bytes n (a / 256 + q).
Proof.
  cbn [le_bytes]. rewrite N.shiftr_div_pow2, (N.mul_comm 256 q). change (2 ^ 8)%N with 256%N.
  rewrite N.div_add by discriminate. f_equal.
  now rewrite <- byte_of_N_mod, N.mod_add, byte_of_N_mod by discriminate.
Qed.

Lemma le_bytes_le_value l : le_bytes (length l) (le_value l) = l.
Proof.
  induction l as [|b r IH]; [reflexivity|]. cbn [length le_value].
  rewrite le_bytes_S, byte_of_N_of_byte, N.div_small by apply N_of_byte_lt256.
  f_equal. exact IH.
Qed.

Lemma le_bytes_mod n v : le_bytes n (v mod 2 ^ (8 * N.of_nat n)) = le_bytes n v.
Proof.
  rewrite <- le_value_le_bytes.
  pose proof (le_bytes_le_value (le_bytes n v)) as H.
  rewrite le_bytes_length in H. exact H.
Qed.

Lemma inc_rev_le l : forall k, inc_rev l k = le_bytes (length l) (le_value l + k).
Proof.
  induction l as [|b r IH]; intros k; [reflexivity|]. cbn [inc_rev length le_value].
  replace (N_of_byte b + 256 * le_value r + k)%N with (N_of_byte b + k + 256 * le_value r)%N by lia.
  rewrite le_bytes_S, IH, N.shiftr_div_pow2. do 2 f_equal. apply N.add_comm.
Qed.

Lemma be_value_lt : forall l, (be_value l < 2 ^ (8 * N.of_nat (length l)))%N.
Proof. intros l. rewrite be_value_le, <- (rev_length l). apply le_value_lt. Qed.

Lemma be_value_be_bytes : forall n v, be_value (be_bytes n v) = (v mod 2 ^ (8 * N.of_nat n))%N.
Proof. intros n v. unfold be_bytes. rewrite be_value_rev. apply le_value_le_bytes. Qed.

Lemma be_bytes_be_value : forall c, be_bytes (length c) (be_value c) = c.
Proof.
  intros c. unfold be_bytes. rewrite be_value_le, <- (rev_length c), le_bytes_le_value.
  apply rev_involutive.
Qed.

Lemma be_bytes_length : forall n v, length (be_bytes n v) = n.
Proof. intros n v. unfold be_bytes. rewrite rev_length. apply le_bytes_length. Qed.

Lemma be_bytes_mod n v : be_bytes n (v mod 2 ^ (8 * N.of_nat n)) = be_bytes n v.
Proof. unfold be_bytes. now rewrite le_bytes_mod. Qed.

Theorem inc_counter_is_add : forall c k, inc_counter c k = ctr_add c k.
Proof.
  intros c k. unfold inc_counter, ctr_add, be_bytes.
  rewrite inc_rev_le, rev_length, <- be_value_le. reflexivity.
Qed.

Corollary inc_counter_value : forall c k,
  be_value (inc_counter c k) = ((be_value c + k) mod 2 ^ (8 * N.of_nat (length c)))%N.
Proof. intros c k. rewrite inc_counter_is_add. unfold ctr_add. apply be_value_be_bytes. Qed.

Lemma ctr_add_length : forall c k, length (ctr_add c k) = length c.
Proof. intros c k. apply be_bytes_length. Qed.

Lemma ctr_add_0 : forall c, ctr_add c 0 = c.
Proof. intros c. unfold ctr_add. rewrite N.add_0_r. apply be_bytes_be_value. Qed.

Lemma inc_counter_length : forall c k, length (inc_counter c k) = length c.
Proof. intros c k. rewrite inc_counter_is_add. apply ctr_add_length. Qed.
Lemma inc_counter_zero : forall c, inc_counter c 0 = c.
Proof. intros c. rewrite inc_counter_is_add. apply ctr_add_0. Qed.

Lemma ctr_add_add : forall c a b, ctr_add (ctr_add c a) b = ctr_add c (a + b).
Proof.
  intros c a b. unfold ctr_add at 1. rewrite ctr_add_length.
  unfold ctr_add at 1. rewrite be_value_be_bytes.
  rewrite <- be_bytes_mod, N.add_mod_idemp_l by apply pow256_nz.
  rewrite be_bytes_mod. unfold ctr_add. now rewrite N.add_assoc.
Qed.

(* keystream of the block function Eb from counter block c0:
   Eb(c0) ++ Eb(c0+1) ++ ... (n blocks) *)
Definition keystream (Eb : list byte -> list byte) (c0 : list byte) (n : nat) : list byte :=
  concat (map (fun i => Eb (ctr_add c0 (N.of_nat i))) (seq 0 n)).

Lemma keystream_shift Eb c0 m : forall s,
  concat (map (fun i => Eb (ctr_add c0 (N.of_nat i))) (seq s m))
  = keystream Eb (ctr_add c0 (N.of_nat s)) m.
Proof.
  unfold keystream. induction m as [|m IH]; intros s; [reflexivity|].
  cbn [seq map concat]. f_equal.
  - change (N.of_nat 0) with 0%N. now rewrite ctr_add_0.
  - rewrite IH, <- seq_shift, map_map. f_equal. apply map_ext. intros i.
    rewrite !ctr_add_add. f_equal. f_equal. lia.
Qed.

Lemma keystream_app Eb c0 n m :
  keystream Eb c0 (n + m) = keystream Eb c0 n ++ keystream Eb (ctr_add c0 (N.of_nat n)) m.
Proof.
  unfold keystream at 1. rewrite seq_app, map_app, concat_app. cbn [plus].
  rewrite (keystream_shift Eb c0 m n). reflexivity.
Qed.

Lemma stagger_add Bn c : stagger Bn c = map (fun k => ctr_add c (N.of_nat k)) (seq 0 Bn).
Proof. unfold stagger. apply map_ext. intros k. apply inc_counter_is_add. Qed.

Lemma stagger_one c : stagger 1 c = [c].
Proof. rewrite stagger_add. cbn. now rewrite ctr_add_0. Qed.

Lemma stagger_keystream Eb Bn c : concat (map Eb (stagger Bn c)) = keystream Eb c Bn.
Proof. rewrite stagger_add, map_map. reflexivity. Qed.

Lemma stagger_advance Bn c :
  map (fun l => inc_counter l (N.of_nat Bn)) (stagger Bn c) = stagger Bn (ctr_add c (N.of_nat Bn)).
Proof.
  rewrite !stagger_add, map_map. apply map_ext. intros k.
  rewrite inc_counter_is_add, !ctr_add_add. f_equal. lia.
Qed.

Section StreamSpec.
  Variable bs : nat.
  Hypothesis Hbs : 0 < bs.

  (* data xor the keystream from byte position pos on *)
  Definition ctr_xor (Eb : list byte -> list byte) (c0 : list byte) (pos : nat)
             (data : list byte) : list byte :=
    xor_bytes data (skipn pos (keystream Eb c0 (S ((pos + length data) / bs)))).

  Lemma ctr_xor_enough pos (d : list byte) : pos + length d <= S ((pos + length d) / bs) * bs.
  Proof. rewrite Nat.mul_comm. apply Nat.lt_le_incl, Nat.mul_succ_div_gt. lia. Qed.

  Section Stream.
    Variable Eb : list byte -> list byte.
    Hypothesis Hlen : forall b, length (Eb b) = bs.

    Lemma keystream_length c0 n : length (keystream Eb c0 n) = n * bs.
    Proof.
      unfold keystream. rewrite (concat_map_length _ bs); [now rewrite seq_length|].
      intros i. apply Hlen.
    Qed.

    Lemma ks_prefix c0 pos d n m : pos + length d <= n * bs ->
      xor_bytes d (skipn pos (keystream Eb c0 (n + m)))
      = xor_bytes d (skipn pos (keystream Eb c0 n)).
    Proof.
      intros H. rewrite keystream_app, skipn_app. apply xor_bytes_prefix.
      rewrite skipn_length, keystream_length. lia.
    Qed.

    (* any sufficient number of keystream blocks gives the same result *)
    Lemma ctr_xor_gen c0 pos d n : pos + length d <= n * bs ->
      xor_bytes d (skipn pos (keystream Eb c0 n)) = ctr_xor Eb c0 pos d.
    Proof.
      intros H. unfold ctr_xor. pose proof (ctr_xor_enough pos d) as H0.
      set (n0 := S ((pos + length d) / bs)) in *.
      destruct (le_ge_dec n n0) as [L|L].
      - replace n0 with (n + (n0 - n)) by lia. symmetry. now apply ks_prefix.
      - replace n with (n0 + (n - n0)) by lia. now apply ks_prefix.
    Qed.

    Lemma ctr_xor_length c0 pos d : length (ctr_xor Eb c0 pos d) = length d.
    Proof.
      unfold ctr_xor. rewrite xor_bytes_length, skipn_length, keystream_length.
      pose proof (ctr_xor_enough pos d). lia.
    Qed.

    (* position pos = a whole blocks + r bytes: the bytes come from the
       keystream that starts at counter c0 + a *)
    Lemma ctr_xor_chunk c0 pos a r m d : pos = a * bs + r -> r + length d <= m * bs ->
      ctr_xor Eb c0 pos d = xor_bytes d (skipn r (keystream Eb (ctr_add c0 (N.of_nat a)) m)).
    Proof.
      intros -> H. rewrite <- (ctr_xor_gen c0 _ d (a + m)) by lia.
      now rewrite keystream_app, skipn_add, skipn_app_exact by apply keystream_length.
    Qed.

    Lemma ctr_xor_app c0 pos d1 d2 :
      ctr_xor Eb c0 pos (d1 ++ d2)
      = ctr_xor Eb c0 pos d1 ++ ctr_xor Eb c0 (pos + length d1) d2.
    Proof.
      pose proof (ctr_xor_enough pos (d1 ++ d2)) as Hn.
      set (n := S ((pos + length (d1 ++ d2)) / bs)) in Hn. rewrite app_length in Hn.
      rewrite <- (ctr_xor_gen c0 pos d1 n), <- (ctr_xor_gen c0 (pos + length d1) d2 n) by lia.
      unfold ctr_xor. fold n. now rewrite xor_bytes_app, skipn_add.
    Qed.

    Lemma ctr_xor_split c0 pos t d : t <= length d ->
      ctr_xor Eb c0 pos d
      = ctr_xor Eb c0 pos (firstn t d) ++ ctr_xor Eb c0 (pos + t) (skipn t d).
    Proof.
      intros H. rewrite <- (firstn_skipn t d) at 1. rewrite ctr_xor_app.
      rewrite firstn_length_le by exact H. reflexivity.
    Qed.

    Corollary ctr_involution_gen c0 pos data :
      ctr_xor Eb c0 pos (ctr_xor Eb c0 pos data) = data.
    Proof.
      unfold ctr_xor at 1. rewrite ctr_xor_length. unfold ctr_xor.
      apply xor_bytes_cancel_r. rewrite skipn_length, keystream_length.
      pose proof (ctr_xor_enough pos data). lia.
    Qed.
  End Stream.

  Corollary ctr_involution : forall Eb c0 data, (forall b, length (Eb b) = bs) ->
    ctr_xor Eb c0 0 (ctr_xor Eb c0 0 data) = data.
  Proof. intros Eb c0 data H. now apply ctr_involution_gen. Qed.
End StreamSpec.

Lemma be_value_zeros_app m b : be_value (zeros m ++ b) = be_value b.
Proof.
  unfold be_value. rewrite fold_left_app. f_equal.
  induction m as [|m IH]; [reflexivity|]. cbn [zeros repeat fold_left]. exact IH.
Qed.

Section CtrRefine.
  Variable K : Type.
  Variable E : K -> list byte -> list byte.
  Variables bs B : nat.
  Hypothesis Hbs : 0 < bs.
  Hypothesis HB : 0 < B.
  Hypothesis HE : forall k blk, length (E k blk) = bs.

  Lemma BS_pos : 0 < B * bs.
  Proof. nia. Qed.

  Fixpoint run_calls (st : ctr K) (calls : list (list byte))
    : option (ctr K * list (list byte)) :=
    match calls with
    | [] => Some (st, [])
    | d :: rest => match crypt K E bs B st d with
                   | Some (st1, o) => match run_calls st1 rest with
                                      | Some (st2, os) => Some (st2, o :: os)
                                      | None => None end
                   | None => None end
    end.

  Lemma run_calls_fold : forall calls st st' outs acc,
    run_calls st calls = Some (st', outs) ->
    fold_left (fun a d => match crypt K E bs B (fst a) d with
                          | Some (st1, o) => (st1, snd a ++ o)
                          | None => a
                          end) calls (st, acc) = (st', acc ++ concat outs).
  Proof.
    induction calls as [|d rest IH]; intros st st' outs acc H; cbn [run_calls fold_left fst snd] in *.
    - injection H as <- <-. now rewrite app_nil_r.
    - destruct (crypt K E bs B st d) as [[st1 o]|]; [|discriminate].
      destruct (run_calls st1 rest) as [[st2 os]|] eqn:Hr; [|discriminate].
      injection H as <- <-. rewrite (IH st1 st2 os _ Hr). cbn [concat]. now rewrite app_assoc.
  Qed.

  (* the state right after a counter set: lanes staggered from c0, keystream buffer empty *)
  Definition fresh_at (st : ctr K) (c0 : list byte) : Prop :=
    length c0 = bs /\ c_lanes st = stagger B c0 /\ c_off st = BS bs B.

  (* "pos bytes of the stream that starts at counter c0 have been consumed";
     q = index of the next batch the lanes will produce *)
  Definition Inv (k : K) (st : ctr K) (c0 : list byte) (pos : nat) : Prop :=
    length c0 = bs /\ c_key st = k /\
    exists q, c_lanes st = stagger B (ctr_add c0 (N.of_nat (q * B)))
      /\ 0 < c_off st <= B * bs
      /\ pos + B * bs = q * (B * bs) + c_off st
      /\ (c_off st < B * bs ->
          c_ecounter st = keystream (E k) (ctr_add c0 (N.of_nat ((q - 1) * B))) B).

  Lemma fresh_Inv st c0 : fresh_at st c0 -> Inv (c_key st) st c0 0.
  Proof.
    intros (H1 & H2 & H3). unfold BS in H3. pose proof BS_pos.
    split; [exact H1|]. split; [reflexivity|]. exists 0.
    cbn [Nat.mul]. change (N.of_nat 0) with 0%N. rewrite ctr_add_0.
    repeat split; try lia. exact H2.
  Qed.

  Lemma refill_lanes st c0 q :
    c_lanes st = stagger B (ctr_add c0 (N.of_nat (q * B))) ->
    c_lanes (refill K E B st) = stagger B (ctr_add c0 (N.of_nat (S q * B))).
  Proof.
    intros H. cbn [refill c_lanes]. rewrite H, stagger_advance, ctr_add_add.
    f_equal. f_equal. lia.
  Qed.

  Lemma refill_ecounter st c0 q :
    c_lanes st = stagger B (ctr_add c0 (N.of_nat (q * B))) ->
    c_ecounter (refill K E B st)
    = keystream (E (c_key st)) (ctr_add c0 (N.of_nat (q * B))) B.
  Proof. intros H. cbn [refill c_ecounter]. rewrite H. apply stagger_keystream. Qed.

  (* What the two moves of the loop do to the invariant.  Taking t bytes from the buffer: *)
  Lemma Inv_advance k st c0 pos t : Inv k st c0 pos -> c_off st < B * bs ->
    c_off st + t <= B * bs ->
    Inv k (with_off K st (c_off st + t)) c0 (pos + t)
    /\ forall d, length d <= t ->
         xor_bytes d (skipn (c_off st) (c_ecounter st)) = ctr_xor bs (E k) c0 pos d.
  Proof.
    intros (Hc0 & Hk & q & Hl & Ho & Hp & He) Hoff Ht. specialize (He Hoff). split.
    - refine (conj Hc0 (conj Hk (ex_intro _ q (conj Hl _)))).
      cbn [with_off c_off c_ecounter]. repeat split; try lia. intros _. exact He.
    - intros d Hd. rewrite He. symmetry.
      apply (ctr_xor_chunk bs Hbs (E k) (HE k) c0 pos ((q - 1) * B)); [|lia].
      destruct q as [|q]; [lia|]. replace (S q - 1) with q by lia. lia.
  Qed.

  (* Refilling the empty buffer: the state if the whole batch is used, the state if only
     t bytes of it are, and what the new buffer holds. *)
  Lemma Inv_refill k st c0 pos : Inv k st c0 pos -> B * bs <= c_off st ->
    let st1 := refill K E B st in
    Inv k st1 c0 (pos + B * bs)
    /\ (forall t, 0 < t < B * bs -> Inv k (with_off K st1 t) c0 (pos + t))
    /\ forall d, length d <= B * bs ->
         xor_bytes d (c_ecounter st1) = ctr_xor bs (E k) c0 pos d.
  Proof.
    intros (Hc0 & Hk & q & Hl & Ho & Hp & _) Hoff st1.
    pose proof (refill_lanes st c0 q Hl) as Hl1.
    pose proof (refill_ecounter st c0 q Hl) as He1. rewrite Hk in He1. fold st1 in Hl1, He1.
    split; [|split].
    - refine (conj Hc0 (conj Hk (ex_intro _ (S q) (conj Hl1 _)))).
      cbn [st1 refill c_off]. repeat split; lia.
    - intros t Ht. refine (conj Hc0 (conj Hk (ex_intro _ (S q) (conj Hl1 _)))).
      cbn [with_off c_off c_ecounter]. repeat split; try lia.
      intros _. now replace (S q - 1) with q by lia.
    - intros d Hd. rewrite He1. symmetry.
      apply (ctr_xor_chunk bs Hbs (E k) (HE k) c0 pos (q * B) 0 B d); lia.
  Qed.

  Lemma Inv_reset_fresh k st c0 pos k' : Inv k st c0 pos ->
    fresh_at (reset_stream K bs B (with_key K st k'))
             (ctr_add c0 (N.of_nat (B * ((pos + B * bs - 1) / (B * bs))))).
  Proof.
    intros (Hc0 & _ & q & Hl & Ho & Hp & _). pose proof BS_pos.
    replace ((pos + B * bs - 1) / (B * bs)) with q
      by (apply (Nat.div_unique _ _ q (c_off st - 1)); lia).
    split; [now rewrite ctr_add_length|]. split; [|reflexivity].
    cbn [reset_stream with_off with_key c_lanes]. now rewrite Hl, Nat.mul_comm.
  Qed.

  Lemma crypt_loop_nil fuel c : crypt_loop K E bs B fuel c [] = Some (c, []).
  Proof. destruct fuel; reflexivity. Qed.

  (* One iteration of the loop on a non-empty input: the next state, the number t of input
     bytes it consumes, and the keystream bytes they are xored with.  The last, partial piece
     (where the C loop breaks) is an iteration like the others, after which no input is left. *)
  Definition crypt_step (c : ctr K) (inp : list byte) : ctr K * nat * list byte :=
    if Nat.leb (B * bs) (c_off c) then
      let c1 := refill K E B c in
      if Nat.leb (B * bs) (length inp) then (c1, B * bs, c_ecounter c1)
      else (with_off K c1 (length inp), length inp, c_ecounter c1)
    else
      let t := Nat.min (B * bs - c_off c) (length inp) in
      (with_off K c (c_off c + t), t, skipn (c_off c) (c_ecounter c)).

  Lemma crypt_loop_cons f c inp : inp <> [] ->
    crypt_loop K E bs B (S f) c inp =
    let '(c1, t, ks) := crypt_step c inp in
    match crypt_loop K E bs B f c1 (skipn t inp) with
    | Some (c2, out) => Some (c2, xor_bytes (firstn t inp) ks ++ out)
    | None => None
    end.
  Proof.
    intros Hne. destruct inp as [|x r]; [congruence|].
    unfold crypt_step. cbn [crypt_loop]. unfold BS.
    destruct (Nat.leb (B * bs) (c_off c)); [|reflexivity].
    destruct (Nat.leb (B * bs) (length (x :: r))); [reflexivity|].
    now rewrite skipn_all, crypt_loop_nil, firstn_all, app_nil_r.
  Qed.

  Lemma crypt_step_consumes c inp : inp <> [] ->
    0 < snd (fst (crypt_step c inp)) <= length inp.
  Proof.
    intros Hne. pose proof BS_pos.
    assert (0 < length inp) by (destruct inp; [congruence | cbn; lia]).
    unfold crypt_step. destruct (Nat.leb_spec (B * bs) (c_off c));
      [destruct (Nat.leb_spec (B * bs) (length inp))|]; cbn [fst snd]; lia.
  Qed.

  Lemma Inv_step k st c0 pos inp : Inv k st c0 pos -> inp <> [] ->
    let '(st1, t, ks) := crypt_step st inp in
    Inv k st1 c0 (pos + t)
    /\ xor_bytes (firstn t inp) ks = ctr_xor bs (E k) c0 pos (firstn t inp).
  Proof.
    intros HI Hne. pose proof BS_pos.
    assert (0 < length inp) by (destruct inp; [congruence | cbn; lia]).
    unfold crypt_step. destruct (Nat.leb_spec (B * bs) (c_off st)) as [Hoff|Hoff].
    - destruct (Inv_refill k st c0 pos HI Hoff) as (Hfull & Hpart & Hbuf).
      destruct (Nat.leb_spec (B * bs) (length inp));
        (split; [|apply Hbuf; rewrite firstn_length; lia]); [exact Hfull | apply Hpart; lia].
    - destruct (Inv_advance k st c0 pos (Nat.min (B * bs - c_off st) (length inp)) HI Hoff)
        as [HI1 Hbuf]; [lia|].
      split; [exact HI1 | apply Hbuf; rewrite firstn_length; lia].
  Qed.

  (* With fuel for every input byte the loop ends, whatever the state; from a state that
     satisfies the invariant it computes the stream and keeps the invariant. *)
  Lemma crypt_loop_run : forall fuel st d, length d <= fuel ->
    exists st' o, crypt_loop K E bs B fuel st d = Some (st', o)
      /\ forall k c0 pos, Inv k st c0 pos ->
           o = ctr_xor bs (E k) c0 pos d /\ Inv k st' c0 (pos + length d).
  Proof.
    induction fuel as [|fuel IH]; intros st d Hf;
      (destruct d as [|x r];
       [exists st, []; split; [apply crypt_loop_nil|];
        intros k c0 pos HI; cbn [length]; rewrite Nat.add_0_r; auto|]);
      [cbn in Hf; lia|].
    set (inp := x :: r) in *. assert (Hne : inp <> []) by discriminate.
    rewrite (crypt_loop_cons fuel st inp Hne).
    pose proof (crypt_step_consumes st inp Hne) as Ht.
    pose proof (fun k c0 pos HI => Inv_step k st c0 pos inp HI Hne) as Hs.
    destruct (crypt_step st inp) as [[st1 t] ks]. cbn [fst snd] in Ht.
    destruct (IH st1 (skipn t inp)) as (st' & o & -> & Hrest); [rewrite skipn_length; lia|].
    eexists _, _. split; [reflexivity|]. intros k c0 pos HI.
    destruct (Hs k c0 pos HI) as [HI1 ->]. destruct (Hrest k c0 _ HI1) as [-> HI']. split.
    - symmetry. apply (ctr_xor_split bs Hbs (E k) (HE k)). lia.
    - rewrite skipn_length in HI'. now replace (pos + length inp) with (pos + t + (length inp - t)) by lia.
  Qed.

  Lemma crypt_run st d : exists st' o, crypt K E bs B st d = Some (st', o)
    /\ forall k c0 pos, Inv k st c0 pos ->
         o = ctr_xor bs (E k) c0 pos d /\ Inv k st' c0 (pos + length d).
  Proof. apply crypt_loop_run. lia. Qed.

  Lemma crypt_total_any : forall st d, exists st' o, crypt K E bs B st d = Some (st', o).
  Proof. intros st d. destruct (crypt_run st d) as (st' & o & Hr & _). now exists st', o. Qed.

  Lemma crypt_total : forall k st c0 pos d, Inv k st c0 pos ->
    exists st' o, crypt K E bs B st d = Some (st', o) /\ length o = length d.
  Proof.
    intros k st c0 pos d HI.
    destruct (crypt_run st d) as (st' & o & Heq & Hs). destruct (Hs k c0 pos HI) as [-> _].
    eexists _, _. split; [exact Heq|]. apply ctr_xor_length; auto.
  Qed.

  Lemma run_calls_spec k c0 : forall calls st pos, Inv k st c0 pos ->
    exists st' outs, run_calls st calls = Some (st', outs)
      /\ concat outs = ctr_xor bs (E k) c0 pos (concat calls)
      /\ map (@length byte) outs = map (@length byte) calls
      /\ Inv k st' c0 (pos + length (concat calls)).
  Proof.
    assert (Hlen : forall b, length (E k b) = bs) by (intros b; apply HE).
    induction calls as [|d rest IH]; intros st pos HI.
    - exists st, []. cbn [run_calls concat map length]. rewrite Nat.add_0_r. auto.
    - destruct (crypt_run st d) as (st1 & o & Heq & Hs). destruct (Hs k c0 pos HI) as [Ho HI1].
      destruct (IH st1 (pos + length d) HI1) as (st2 & os & Heq2 & Hc & Hm & HI2).
      exists st2, (o :: os). cbn [run_calls]. rewrite Heq, Heq2.
      split; [reflexivity|]. cbn [concat map]. split; [|split].
      + rewrite (ctr_xor_app bs Hbs (E k) Hlen), Hc, Ho. reflexivity.
      + rewrite Hm, Ho, (ctr_xor_length bs Hbs (E k) Hlen). reflexivity.
      + rewrite app_length, Nat.add_assoc. exact HI2.
  Qed.

  Theorem ctr_refinement : forall st c0 calls, fresh_at st c0 ->
    exists st' outs, run_calls st calls = Some (st', outs)
      /\ concat outs = ctr_xor bs (E (c_key st)) c0 0 (concat calls)
      /\ map (@length byte) outs = map (@length byte) calls
      /\ c_key st' = c_key st.
  Proof.
    intros st c0 calls Hf.
    destruct (run_calls_spec (c_key st) c0 calls st 0 (fresh_Inv st c0 Hf))
      as (st' & outs & H1 & H2 & H3 & H4).
    exists st', outs. repeat split; auto. apply H4.
  Qed.

  Corollary ctr_split_independent : forall st c0 calls1 calls2,
    fresh_at st c0 -> concat calls1 = concat calls2 ->
    forall s1 o1 s2 o2, run_calls st calls1 = Some (s1, o1) ->
      run_calls st calls2 = Some (s2, o2) -> concat o1 = concat o2.
  Proof.
    intros st c0 calls1 calls2 Hf Hc s1 o1 s2 o2 H1 H2.
    destruct (ctr_refinement st c0 calls1 Hf) as (s1' & o1' & E1 & C1 & _).
    destruct (ctr_refinement st c0 calls2 Hf) as (s2' & o2' & E2 & C2 & _).
    rewrite H1 in E1. rewrite H2 in E2. injection E1 as <- <-. injection E2 as <- <-.
    now rewrite C1, C2, Hc.
  Qed.

  Lemma set_counter_key st cnt size : c_key (snd (set_counter K bs B st cnt size)) = c_key st.
  Proof. unfold set_counter. now destruct (N.leb size (N.of_nat bs)). Qed.

  (* set_counter establishes fresh_at; counters shorter than a block are
     left-padded with zeros, NULL = zero *)
  Theorem set_counter_fresh : forall st cnt size, (size <= N.of_nat bs)%N ->
    let blk := match cnt with
               | Some b => zeros (bs - N.to_nat size) ++ pad_to (N.to_nat size) b
               | None => zeros bs end in
    set_counter K bs B st cnt size = (1%N, snd (set_counter K bs B st cnt size))
    /\ fresh_at (snd (set_counter K bs B st cnt size)) blk
    /\ c_key (snd (set_counter K bs B st cnt size)) = c_key st.
  Proof using Hbs HB HE. (* stated under the section's hypotheses, which the argument does not need *)
    intros st cnt size Hs blk. split; [|split; [|apply set_counter_key]]; unfold set_counter;
      (destruct (N.leb_spec size (N.of_nat bs)) as [_|Hc]; [|lia]); [reflexivity|].
    split; [|split; reflexivity]. subst blk. destruct cnt as [b|].
    - rewrite app_length, zeros_length, pad_to_length. lia.
    - apply zeros_length.
  Qed.

  Theorem set_counter_reject : forall st cnt size, (N.of_nat bs < size)%N ->
    set_counter K bs B st cnt size = (0%N, st).
  Proof using Hbs HB.
    intros st cnt size Hs. unfold set_counter.
    destruct (N.leb_spec size (N.of_nat bs)) as [Hc|_]; [lia|reflexivity].
  Qed.

  Lemma counter_block_value : forall b n, length b = n -> n <= bs ->
    be_value (zeros (bs - n) ++ b) = be_value b.
  Proof. intros b n _ _. apply be_value_zeros_app. Qed.

  (* key or tweak change in the middle of a stream (the library only resets
     the buffer offset): the stream restarts at the counter of lane 0, i.e. at
     c0 + B * ceil(pos / (B*bs)) where pos bytes had been consumed *)
  Theorem rekey_restarts : forall st c0 calls st' outs k',
    fresh_at st c0 -> run_calls st calls = Some (st', outs) ->
    fresh_at (reset_stream K bs B (with_key K st' k'))
             (ctr_add c0 (N.of_nat (B * ((length (concat calls) + B * bs - 1) / (B * bs))))).
  Proof.
    intros st c0 calls st' outs k' Hf Hr.
    destruct (run_calls_spec (c_key st) c0 calls st 0 (fresh_Inv st c0 Hf))
      as (st2 & outs2 & H1 & _ & _ & HI).
    rewrite Hr in H1. injection H1 as <- <-. exact (Inv_reset_fresh _ _ _ _ k' HI).
  Qed.
End CtrRefine.

Lemma chunks_nil fuel n : chunks fuel n [] = [].
Proof. destruct fuel; reflexivity. Qed.

Lemma chunks_fuel n : 0 < n -> forall f1 f2 l, length l <= f1 -> length l <= f2 ->
  chunks f1 n l = chunks f2 n l.
Proof.
  intros Hn. induction f1 as [|f1 IH]; intros f2 l H1 H2.
  - destruct l; [|cbn in H1; lia]. now rewrite !chunks_nil.
  - destruct l as [|x l]; [now rewrite !chunks_nil|].
    destruct f2 as [|f2]; [cbn in H2; lia|].
    cbn [chunks]. f_equal. apply IH; rewrite skipn_length; cbn [length] in *; lia.
Qed.

Lemma blocks_nil bs : blocks bs [] = [].
Proof. reflexivity. Qed.

(* the first block may be a short one *)
Lemma blocks_step bs l : 0 < bs -> l <> [] ->
  blocks bs l = firstn bs l :: blocks bs (skipn bs l).
Proof.
  intros Hbs Hl. unfold blocks. destruct l as [|x l]; [congruence|].
  cbn [length chunks]. f_equal. apply chunks_fuel; [exact Hbs| |lia].
  rewrite skipn_length. cbn [length]. lia.
Qed.

Lemma blocks_cons bs a l : 0 < bs -> length a = bs -> blocks bs (a ++ l) = a :: blocks bs l.
Proof.
  intros Hbs Ha.
  rewrite (blocks_step bs (a ++ l) Hbs) by (destruct a; [cbn in Ha; lia | discriminate]).
  now rewrite firstn_app_exact, skipn_app_exact by exact Ha.
Qed.

Lemma blocks_single bs (a : list byte) : 0 < bs -> length a = bs -> blocks bs a = [a].
Proof. intros Hbs Ha. rewrite <- (app_nil_r a) at 1. now apply blocks_cons. Qed.

Lemma blocks_of_concat bs : 0 < bs -> forall l : list (list byte),
  Forall (fun b => length b = bs) l -> blocks bs (concat l) = l.
Proof.
  intros Hbs l H. induction H as [|a l Ha _ IH]; [reflexivity|].
  cbn [concat]. now rewrite (blocks_cons bs a _ Hbs Ha), IH.
Qed.

Lemma blocks_concat : forall bs l, 0 < bs -> concat (blocks bs l) = l.
Proof.
  intros bs l Hbs. unfold blocks.
  assert (G : forall f l, length l <= f -> concat (chunks f bs l) = l).
  { induction f as [|f IH]; intros l0 H.
    - destruct l0; [reflexivity|cbn in H; lia].
    - destruct l0 as [|x l0]; [reflexivity|]. cbn [chunks concat].
      rewrite IH; [apply firstn_skipn|]. rewrite skipn_length. cbn [length] in *. lia. }
  apply G. lia.
Qed.

Lemma blocks_length_k bs : 0 < bs -> forall k l, length l = k * bs ->
  Forall (fun b => length b = bs) (blocks bs l) /\ length (blocks bs l) = k.
Proof.
  intros Hbs. induction k as [|k IH]; intros l H.
  - destruct l; [|cbn in H; lia]. split; [constructor|reflexivity].
  - destruct (split_block bs k l H) as (a & r & -> & Ha & Hr).
    rewrite (blocks_cons bs a r Hbs Ha). destruct (IH r Hr) as (F & L).
    split; [constructor; assumption|]. cbn [length]. now rewrite L.
Qed.

Lemma mod0_mult a b : 0 < b -> a mod b = 0 -> exists k, a = k * b.
Proof.
  intros Hb H. apply Nat.mod_divides in H; [|lia]. destruct H as (c & ->).
  exists c. apply Nat.mul_comm.
Qed.

Lemma blocks_length : forall bs l, 0 < bs -> length l mod bs = 0 ->
  Forall (fun b => length b = bs) (blocks bs l) /\ length (blocks bs l) = length l / bs.
Proof.
  intros bs l Hbs Hm. destruct (mod0_mult _ _ Hbs Hm) as (k & Hk).
  rewrite Hk, Nat.div_mul by lia. now apply blocks_length_k.
Qed.

Lemma blocks_app bs : 0 < bs -> forall k l1 l2, length l1 = k * bs ->
  blocks bs (l1 ++ l2) = blocks bs l1 ++ blocks bs l2.
Proof.
  intros Hbs. induction k as [|k IH]; intros l1 l2 H.
  - destruct l1; [reflexivity|cbn in H; lia].
  - destruct (split_block bs k l1 H) as (a & r & -> & Ha & Hr).
    rewrite <- app_assoc, !(blocks_cons bs a _ Hbs Ha), (IH r l2 Hr). reflexivity.
Qed.

Section ParProofs.
  Variable bs : nat.
  Variable f : list byte -> list byte -> list byte.
  Hypothesis Hbs : 0 < bs.

  Lemma vec_batch_nil : vec_batch bs f [] [] = [].
  Proof. reflexivity. Qed.

  Lemma vec_batch_app k tw1 d1 tw2 d2 : length tw1 = k * bs -> length d1 = k * bs ->
    vec_batch bs f (tw1 ++ tw2) (d1 ++ d2) = vec_batch bs f tw1 d1 ++ vec_batch bs f tw2 d2.
  Proof.
    intros Ht Hd. unfold vec_batch.
    rewrite (blocks_app bs Hbs k tw1 tw2 Ht), (blocks_app bs Hbs k d1 d2 Hd).
    rewrite combine_app, map_app, concat_app; [reflexivity|].
    destruct (blocks_length_k bs Hbs k tw1 Ht) as (_ & ->).
    destruct (blocks_length_k bs Hbs k d1 Hd) as (_ & ->). reflexivity.
  Qed.

  Lemma vec_batch_step k tw d : length tw = S k * bs -> length d = S k * bs ->
    vec_batch bs f tw d
    = f (firstn bs tw) (firstn bs d) ++ vec_batch bs f (skipn bs tw) (skipn bs d).
  Proof.
    intros Ht Hd. unfold vec_batch.
    rewrite (blocks_step bs tw Hbs), (blocks_step bs d Hbs); [reflexivity| |];
      intros ->; cbn [length] in *; lia.
  Qed.

  Lemma single_loop_spec : forall k fuel tw d, length tw = k * bs -> length d = k * bs ->
    k <= fuel -> single_loop bs f fuel tw d = vec_batch bs f tw d.
  Proof.
    induction k as [|k IH]; intros fuel tw d Ht Hd Hf.
    - destruct tw; [|cbn in Ht; lia]. destruct d; [|cbn in Hd; lia].
      destruct fuel; cbn [single_loop length]; [reflexivity|].
      destruct (Nat.leb_spec bs 0); [lia|reflexivity].
    - destruct fuel as [|fuel]; [lia|]. cbn [single_loop].
      destruct (Nat.leb_spec bs (length d)); [|lia].
      rewrite (vec_batch_step k tw d Ht Hd). f_equal.
      apply IH; rewrite ?skipn_length; lia.
  Qed.

  Lemma single_loop_len k tw d : length tw = k * bs -> length d = k * bs ->
    single_loop bs f (length d) tw d = vec_batch bs f tw d.
  Proof. intros Ht Hd. apply (single_loop_spec k); auto. nia. Qed.

  Lemma batch_loop_spec p : forall fuel k tw d, length tw = k * bs -> length d = k * bs ->
    batch_loop bs f fuel (p * bs) tw d = vec_batch bs f tw d.
  Proof.
    induction fuel as [|fuel IH]; intros k tw d Ht Hd; cbn [batch_loop].
    - now apply (single_loop_len k).
    - destruct (Nat.leb_spec (p * bs) (length d)) as [Hle|Hgt]; [|now apply (single_loop_len k)].
      rewrite (IH (k - p)) by (rewrite skipn_length, Nat.mul_sub_distr_r; congruence).
      rewrite <- (vec_batch_app p) by (rewrite firstn_length; lia).
      now rewrite !firstn_skipn.
  Qed.
End ParProofs.

Lemma vec_batch_length : forall bs (E : list byte -> list byte -> list byte), 0 < bs ->
  (forall t b, length t = bs -> length b = bs -> length (E t b) = bs) ->
  forall k (t x : list byte), length t = k * bs -> length x = k * bs -> length (vec_batch bs E t x) = k * bs.
Proof.
  intros bs E Hbs HE. induction k as [|k IH]; intros t x Ht Hx.
  - destruct x; [|discriminate]. destruct t; [reflexivity | discriminate].
  - rewrite (vec_batch_step bs E Hbs k t x Ht Hx), app_length, HE, (IH (skipn bs t) (skipn bs x))
      by (rewrite ?firstn_length, ?skipn_length; lia). reflexivity.
Qed.
(* the untweaked batch is the tweaked one with a function that ignores its tweak *)
Lemma vec_batch_same : forall bs (E : list byte -> list byte) d, vec_batch bs (fun _ x => E x) d d = concat (map E (blocks bs d)).
Proof.
  intros bs E d. unfold vec_batch. f_equal.
  induction (blocks bs d) as [|b l IH]; [reflexivity|]. cbn [combine map]. rewrite IH. reflexivity.
Qed.
Lemma blocks_map_length : forall bs (E : list byte -> list byte), 0 < bs -> (forall blk, length blk = bs -> length (E blk) = bs) ->
  forall x : list byte, length x mod bs = 0 -> length (concat (map E (blocks bs x))) = length x.
Proof.
  intros bs E Hbs HE x Hx. destruct (mod0_mult _ _ Hbs Hx) as (k & Hk).
  rewrite <- vec_batch_same, Hk. apply vec_batch_length; auto.
Qed.

Theorem par_crypt_spec : forall (bs : nat) (f : list byte -> list byte -> list byte)
    (has_vt : bool) (psize : nat) (tw data : list byte),
  0 < bs -> 0 < psize -> psize mod bs = 0 -> length data mod bs = 0 ->
  length tw = length data ->
  par_crypt bs f has_vt psize tw data
  = concat (map (fun p => f (fst p) (snd p)) (combine (blocks bs tw) (blocks bs data))).
Proof.
  intros bs f has_vt psize tw data Hbs Hp Hpm Hdm Hlen.
  destruct (mod0_mult _ _ Hbs Hpm) as (p & ->).
  destruct (mod0_mult _ _ Hbs Hdm) as (k & Hk).
  change (concat _) with (vec_batch bs f tw data).
  unfold par_crypt. destruct has_vt.
  - apply (batch_loop_spec bs f Hbs p _ k); congruence.
  - apply (single_loop_len bs f Hbs k); congruence.
Qed.

(* hence the result does not depend on the advertised parallel size or on
   whether a vector back end is present *)
Corollary par_crypt_indep : forall bs f v1 p1 v2 p2 tw data,
  0 < bs -> 0 < p1 -> p1 mod bs = 0 -> 0 < p2 -> p2 mod bs = 0 ->
  length data mod bs = 0 -> length tw = length data ->
  par_crypt bs f v1 p1 tw data = par_crypt bs f v2 p2 tw data.
Proof.
  intros. rewrite !par_crypt_spec by assumption. reflexivity.
Qed.

Print Assumptions inc_counter_is_add.
Print Assumptions ctr_refinement.
Print Assumptions set_counter_fresh.
Print Assumptions rekey_restarts.
Print Assumptions par_crypt_spec.
Print Assumptions ctr_split_independent.
Print Assumptions ctr_involution.
Print Assumptions crypt_total.
Print Assumptions par_crypt_indep.
