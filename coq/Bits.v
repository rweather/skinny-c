(* Bits.v — bit carriers, 4- and 8-bit cells as tuples, xor algebra.
   The cell operations are polymorphic in the carrier [B] of a bit (Section Carrier), so that the
   specifications built on them run on [bool] (the executable reference) and on GF(2) polynomials
   (symbolic checking of code kernels, file Anf.v).  The rest of the file is the [bool] instance:
   bytes and nibbles, their numbering, enumeration and xor laws, and xor of byte strings. *)
From Coq Require Import List Bool NArith Arith Lia.
Import ListNotations.

Section Carrier.
  Variable B : Type.
  Variables (bx ba : B -> B -> B) (b0 b1 : B).

  Definition bnot (a : B) : B := bx a b1.
  Definition bnor (a b : B) : B := ba (bnot a) (bnot b).
  Definition bor (a b : B) : B := bnot (bnor a b).
  Definition bnand (a b : B) : B := bnot (ba a b).
  Definition bconst (b : bool) : B := if b then b1 else b0.

  (* cells, most significant bit first *)
  Definition c4 : Type := (B * B * B * B)%type.
  Definition c8 : Type := (B * B * B * B * B * B * B * B)%type.

  Definition c4x (a b : c4) : c4 :=
    let '(a3, a2, a1, a0) := a in let '(d3, d2, d1, d0) := b in
    (bx a3 d3, bx a2 d2, bx a1 d1, bx a0 d0).
  Definition c8x (a b : c8) : c8 :=
    let '(a7, a6, a5, a4, a3, a2, a1, a0) := a in
    let '(d7, d6, d5, d4, d3, d2, d1, d0) := b in
    (bx a7 d7, bx a6 d6, bx a5 d5, bx a4 d4, bx a3 d3, bx a2 d2, bx a1 d1, bx a0 d0).

  Definition c4zero : c4 := (b0, b0, b0, b0).
  Definition c8zero : c8 := (b0, b0, b0, b0, b0, b0, b0, b0).
  Definition c4nib (x3 x2 x1 x0 : bool) : c4 :=
    (bconst x3, bconst x2, bconst x1, bconst x0).
  (* a constant byte whose high nibble is zero and whose low nibble is given *)
  Definition c8nib (x3 x2 x1 x0 : bool) : c8 :=
    (b0, b0, b0, b0, bconst x3, bconst x2, bconst x1, bconst x0).

  (* a byte is two 4-bit cells, high nibble first *)
  Definition c8hi (x : c8) : c4 :=
    let '(x7, x6, x5, x4, _, _, _, _) := x in (x7, x6, x5, x4).
  Definition c8lo (x : c8) : c4 :=
    let '(_, _, _, _, x3, x2, x1, x0) := x in (x3, x2, x1, x0).
  Definition c8join (h l : c4) : c8 :=
    let '(x7, x6, x5, x4) := h in let '(x3, x2, x1, x0) := l in
    (x7, x6, x5, x4, x3, x2, x1, x0).

  Definition c8bits (x : c8) : list B :=
    let '(x7, x6, x5, x4, x3, x2, x1, x0) := x in [x7; x6; x5; x4; x3; x2; x1; x0].
  Definition c4bits (x : c4) : list B :=
    let '(x3, x2, x1, x0) := x in [x3; x2; x1; x0].
  Definition c8ofbits (l : list B) : c8 :=
    match l with
    | x7 :: x6 :: x5 :: x4 :: x3 :: x2 :: x1 :: x0 :: _ => (x7, x6, x5, x4, x3, x2, x1, x0)
    | _ => c8zero
    end.
  Definition c4ofbits (l : list B) : c4 :=
    match l with
    | x3 :: x2 :: x1 :: x0 :: _ => (x3, x2, x1, x0)
    | _ => c4zero
    end.
End Carrier.

Arguments c4x {B}. Arguments c8x {B}. Arguments c8hi {B}. Arguments c8lo {B}.
Arguments c8join {B}. Arguments c8bits {B}. Arguments c4bits {B}.
Arguments c8ofbits {B}. Arguments c4ofbits {B}.

Definition byte : Type := c8 bool.
Definition nib : Type := c4 bool.
Definition bxor8 : byte -> byte -> byte := c8x xorb.
Definition bxor4 : nib -> nib -> nib := c4x xorb.
Definition byte0 : byte := c8zero bool false.
Definition nib0 : nib := c4zero bool false.

Definition byte_of_N (n : N) : byte :=
  (N.testbit n 7, N.testbit n 6, N.testbit n 5, N.testbit n 4,
   N.testbit n 3, N.testbit n 2, N.testbit n 1, N.testbit n 0).
(* most significant bit first, like [c8bits] *)
Definition N_of_bits (l : list bool) : N :=
  fold_left (fun (acc : N) (b : bool) => (2 * acc + (if b then 1 else 0))%N) l 0%N.
Definition N_of_byte (x : byte) : N := N_of_bits (c8bits x).
Definition nib_of_N (n : N) : nib :=
  (N.testbit n 3, N.testbit n 2, N.testbit n 1, N.testbit n 0).
Definition N_of_nib (x : nib) : N := N_of_bits (c4bits x).

Definition bytes_of_Ns (l : list N) : list byte := map byte_of_N l.
Definition Ns_of_bytes (l : list byte) : list N := map N_of_byte l.

Definition all_bytes : list byte := map byte_of_N (map N.of_nat (seq 0 256)).
Definition all_nibs : list nib := map nib_of_N (map N.of_nat (seq 0 16)).

(* destruct patterns for a nibble, a byte (also a row of four cells) and a
   state of four rows (SpecSkinny.state) *)
Ltac d4 x := destruct x as [[[? ?] ?] ?].
Ltac d8 x := destruct x as [[[[[[[? ?] ?] ?] ?] ?] ?] ?].
Ltac dstate s := destruct s as [[[[[[? ?] ?] ?] [[[? ?] ?] ?]] [[[? ?] ?] ?]] [[[? ?] ?] ?]].
Ltac pair_eq := repeat match goal with |- (_, _) = (_, _) => apply f_equal2 end.

(* bit i of the number is the i-th element from the end: appending a bit doubles and adds it *)
Lemma testbit_N_of_bits l : forall i, N.testbit (N_of_bits l) (N.of_nat i) = nth i (rev l) false.
Proof.
  induction l as [|b l IH] using rev_ind; intros i; [now destruct i|].
  unfold N_of_bits. rewrite fold_left_app, rev_app_distr. fold (N_of_bits l). cbn [fold_left rev app nth].
  destruct i as [|i]; [apply (N.testbit_0_r _ b)|].
  rewrite Nat2N.inj_succ, <- IH. apply (N.testbit_succ_r _ b).
Qed.
(* each component of the tuple is the bit of its own position *)
Ltac bits_back := pair_eq;
  match goal with |- N.testbit _ ?k = _ => exact (testbit_N_of_bits _ (N.to_nat k)) end.
Lemma byte_of_N_of_byte x : byte_of_N (N_of_byte x) = x.
Proof. d8 x. unfold byte_of_N. bits_back. Qed.
Lemma nib_of_N_of_nib x : nib_of_N (N_of_nib x) = x.
Proof. d4 x. unfold nib_of_N. bits_back. Qed.

(* each bit doubles the bound *)
Lemma N_of_bits_lt l : (N_of_bits l < 2 ^ N.of_nat (length l))%N.
Proof.
  unfold N_of_bits.
  enough (forall acc, (fold_left (fun (acc : N) (b : bool) => 2 * acc + (if b then 1 else 0)) l acc
                       < 2 ^ N.of_nat (length l) * (acc + 1))%N) as H
    by (specialize (H 0%N); lia).
  induction l as [|b l IH]; intros acc; cbn [fold_left length].
  - rewrite N.pow_0_r. lia.
  - rewrite Nat2N.inj_succ, N.pow_succ_r'. specialize (IH (2 * acc + (if b then 1 else 0))%N).
    destruct b; nia.
Qed.
Lemma N_of_byte_lt256 (x : byte) : (N_of_byte x < 256)%N.
Proof. d8 x. exact (N_of_bits_lt [_; _; _; _; _; _; _; _]). Qed.
Lemma N_of_nib_lt16 (x : nib) : (N_of_nib x < 16)%N.
Proof. d4 x. exact (N_of_bits_lt [_; _; _; _]). Qed.

Lemma byte_of_N_mod v : byte_of_N (v mod 256) = byte_of_N v.
Proof.
  unfold byte_of_N. change 256%N with (2 ^ 8)%N.
  rewrite !N.mod_pow2_bits_low by reflexivity. reflexivity.
Qed.

(* bit by bit: below position 8 both sides show the bit of v, above it none *)
Lemma N_of_byte_of_N v : N_of_byte (byte_of_N v) = (v mod 256)%N.
Proof.
  apply N.bits_inj. intros m. rewrite <- (N2Nat.id m). generalize (N.to_nat m). intros i.
  unfold N_of_byte. rewrite testbit_N_of_bits. change 256%N with (2 ^ 8)%N.
  do 8 (destruct i as [|i]; [now rewrite N.mod_pow2_bits_low|]).
  rewrite N.mod_pow2_bits_high by lia. now destruct i.
Qed.

(* a type with an injection into the numbers below n is enumerated by them *)
Lemma enum_complete {A} (of_N : N -> A) (to_N : A -> N) n :
  (forall x, of_N (to_N x) = x) -> (forall x, (to_N x < N.of_nat n)%N) ->
  forall x, In x (map of_N (map N.of_nat (seq 0 n))).
Proof.
  intros Hr Hlt x. rewrite <- (Hr x). apply in_map.
  rewrite <- (N2Nat.id (to_N x)). apply in_map, in_seq. specialize (Hlt x). lia.
Qed.
Lemma all_bytes_complete : forall x : byte, In x all_bytes.
Proof. exact (enum_complete _ _ 256 byte_of_N_of_byte N_of_byte_lt256). Qed.
Lemma all_nibs_complete : forall x : nib, In x all_nibs.
Proof. exact (enum_complete _ _ 16 nib_of_N_of_nib N_of_nib_lt16). Qed.

(* equality on a type with a retraction into N is decided there *)
Lemma eqb_retract {A} (f : A -> N) (g : N -> A) :
  (forall x, g (f x) = x) -> forall a b, N.eqb (f a) (f b) = true <-> a = b.
Proof.
  intros H a b. rewrite N.eqb_eq. split; [|congruence].
  intros E. rewrite <- (H a), E. apply H.
Qed.
Definition byte_eqb (a b : byte) : bool := N.eqb (N_of_byte a) (N_of_byte b).
Lemma byte_eqb_eq a b : byte_eqb a b = true <-> a = b.
Proof. exact (eqb_retract _ _ byte_of_N_of_byte a b). Qed.
Definition nib_eqb (a b : nib) : bool := N.eqb (N_of_nib a) (N_of_nib b).
Lemma nib_eqb_eq a b : nib_eqb a b = true <-> a = b.
Proof. exact (eqb_retract _ _ nib_of_N_of_nib a b). Qed.

(* a finite sweep lifted to a universally quantified statement *)
Lemma forall_bytes (P : byte -> bool) :
  forallb P all_bytes = true -> forall x, P x = true.
Proof. intros H x. rewrite forallb_forall in H. apply H, all_bytes_complete. Qed.
Lemma forall_nibs (P : nib -> bool) :
  forallb P all_nibs = true -> forall x, P x = true.
Proof. intros H x. rewrite forallb_forall in H. apply H, all_nibs_complete. Qed.

Lemma bxor8_comm a b : bxor8 a b = bxor8 b a.
Proof. d8 a. d8 b. cbn. pair_eq; apply xorb_comm. Qed.
Lemma bxor8_assoc a b c : bxor8 (bxor8 a b) c = bxor8 a (bxor8 b c).
Proof. d8 a. d8 b. d8 c. cbn. pair_eq; apply xorb_assoc. Qed.
Lemma bxor8_nilp a : bxor8 a a = byte0.
Proof. d8 a. cbn. unfold byte0, c8zero. pair_eq; apply xorb_nilpotent. Qed.
Lemma bxor8_0_r a : bxor8 a byte0 = a.
Proof. d8 a. cbn. pair_eq; apply xorb_false_r. Qed.
Lemma bxor8_0_l a : bxor8 byte0 a = a.
Proof. rewrite bxor8_comm. apply bxor8_0_r. Qed.
Lemma bxor8_cancel_r a b : bxor8 (bxor8 a b) b = a.
Proof. now rewrite bxor8_assoc, bxor8_nilp, bxor8_0_r. Qed.

Lemma bxor4_comm a b : bxor4 a b = bxor4 b a.
Proof. d4 a. d4 b. cbn. pair_eq; apply xorb_comm. Qed.
Lemma bxor4_assoc a b c : bxor4 (bxor4 a b) c = bxor4 a (bxor4 b c).
Proof. d4 a. d4 b. d4 c. cbn. pair_eq; apply xorb_assoc. Qed.
Lemma bxor4_nilp a : bxor4 a a = nib0.
Proof. d4 a. cbn. unfold nib0, c4zero. pair_eq; apply xorb_nilpotent. Qed.
Lemma bxor4_0_r a : bxor4 a nib0 = a.
Proof. d4 a. cbn. pair_eq; apply xorb_false_r. Qed.
Lemma bxor4_0_l a : bxor4 nib0 a = a.
Proof. rewrite bxor4_comm. apply bxor4_0_r. Qed.

Lemma c8join_hi_lo {B} (x : c8 B) : c8join (c8hi x) (c8lo x) = x.
Proof. now d8 x. Qed.
Lemma c8hi_join {B} (h l : c4 B) : c8hi (c8join h l) = h.
Proof. now d4 h; d4 l. Qed.
Lemma c8lo_join {B} (h l : c4 B) : c8lo (c8join h l) = l.
Proof. now d4 h; d4 l. Qed.

(* xor of byte strings, position by position (the shorter one decides) *)
Fixpoint xor_bytes (a b : list byte) : list byte :=
  match a, b with
  | x :: a', y :: b' => bxor8 x y :: xor_bytes a' b'
  | _, _ => []
  end.
Lemma xor_bytes_length a : forall b, length (xor_bytes a b) = Nat.min (length a) (length b).
Proof. induction a as [|x a IH]; intros [|y b]; cbn; auto. Qed.
Lemma xor_bytes_app a1 : forall a2 b,
  xor_bytes (a1 ++ a2) b = xor_bytes a1 b ++ xor_bytes a2 (skipn (length a1) b).
Proof.
  induction a1 as [|x a1 IH]; intros a2 [|y b]; cbn; try reflexivity; [now destruct a2 | now rewrite IH].
Qed.
Lemma xor_bytes_prefix a : forall b c, length a <= length b -> xor_bytes a (b ++ c) = xor_bytes a b.
Proof.
  induction a as [|x a IH]; intros [|y b] c H; cbn in *; try lia; auto.
  f_equal. apply IH. lia.
Qed.
Lemma xor_bytes_firstn a : forall b, xor_bytes a (firstn (length a) b) = xor_bytes a b.
Proof. induction a as [|x a IH]; intros [|y b]; cbn; auto. f_equal. apply IH. Qed.
Lemma xor_bytes_cancel_r a : forall k, length a <= length k ->
  xor_bytes (xor_bytes a k) k = a.
Proof.
  induction a as [|x a IH]; intros [|y k] H; cbn in *; auto; try lia.
  rewrite bxor8_cancel_r. f_equal. apply IH. lia.
Qed.
