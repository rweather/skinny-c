(* ProofsCpu.v — back-end selection over the abstract CPU (property C13): the probes are deterministic
   and the selected back end is the widest one that build, CPU and OS allow; the probe of the
   library as shipped is neither. *)
From Coq Require Import List Bool NArith Lia.
From Skinny Require Import ModelCpu.
Import ListNotations.
Local Open Scope N_scope.

Lemma cpuid_in_range c a leaf s : leaf <= max_leaf c ->
  cpuid c a leaf s =
  if leaf =? 0 then (max_leaf c, 0, 0, 0)
  else if leaf =? 1 then (0, 0, l1_ecx c, l1_edx c)
  else if leaf =? 7
       then (0, (if match s with Some v => v | None => a end =? 0 then l7_ebx0 c else l7_ebxN c), 0, 0)
  else (0, 0, 0, 0).
Proof. intros H. unfold cpuid. now rewrite (proj2 (N.ltb_ge _ _) H). Qed.

Lemma cpuid_out_of_range c a leaf s : max_leaf c < leaf -> cpuid c a leaf s = (0, oor_ebx c, 0, 0).
Proof. intros H. unfold cpuid. now rewrite (proj2 (N.ltb_lt _ _) H). Qed.

Lemma probe128_spec b c a : probe128 b c a = has128 b && sse2_usable c.
Proof.
  unfold probe128, sse2_usable. destruct (N.leb_spec 1 (max_leaf c)) as [H|H].
  - now rewrite cpuid_in_range by exact H.
  - rewrite cpuid_out_of_range by exact H. cbn. now rewrite andb_false_r.
Qed.

Lemma probe256_spec b c a : probe256 b c a = has256 b && avx2_usable c.
Proof.
  unfold probe256, avx2_usable. destruct (has256 b); [|reflexivity]. cbn [negb andb].
  rewrite (cpuid_in_range c a 0) by apply N.le_0_l. cbn [eax_of N.eqb].
  rewrite N.ltb_antisym. destruct (N.leb_spec 7 (max_leaf c)) as [H|H]; [|reflexivity].
  rewrite !cpuid_in_range by lia. cbn.
  destruct (N.testbit (l1_ecx c) 27), (N.testbit (l1_ecx c) 28),
    (N.land (xcr0 c) 6 =? 6); reflexivity.
Qed.

(* deterministic: the answer does not depend on what the registers held *)
Theorem probes_ignore_ambient : forall b c a1 a2,
  probe128 b c a1 = probe128 b c a2 /\ probe256 b c a1 = probe256 b c a2.
Proof. intros. now rewrite !probe128_spec, !probe256_spec. Qed.

(* accurate: the widest compiled-in back end that the CPU and OS can run *)
Theorem select_is_widest : forall wide b c a, select wide b c a = widest wide b c.
Proof.
  intros. unfold select, widest. rewrite probe128_spec, probe256_spec.
  destruct wide; cbn [andb]; [destruct (has256 b && avx2_usable c)|]; reflexivity.
Qed.
Theorem select_ignores_ambient : forall wide b c a1 a2, select wide b c a1 = select wide b c a2.
Proof. intros. now rewrite !select_is_widest. Qed.

(* never above the CPU *)
Theorem select_v256_usable : forall wide b c a,
  select wide b c a = BV256 -> wide = true /\ has256 b = true /\ avx2_usable c = true.
Proof.
  intros wide b c a. rewrite select_is_widest. unfold widest.
  destruct wide, (has256 b), (avx2_usable c); cbn;
    try (destruct (has128 b && sse2_usable c); discriminate); auto.
Qed.
Theorem select_v128_usable : forall wide b c a,
  select wide b c a = BV128 -> has128 b = true /\ sse2_usable c = true.
Proof.
  intros wide b c a. rewrite select_is_widest. unfold widest.
  destruct (wide && has256 b && avx2_usable c); [discriminate|].
  destruct (has128 b), (sse2_usable c); cbn; try discriminate; auto.
Qed.

(* the probe as shipped, ModelCpu.probe256_orig, is neither deterministic nor safe.
   avx2_cpu: the CPUID / XGETBV words harness/model_main.ml takes as its default real CPU (AVX2 with
   OS support); avx2_without_os: the same with leaf 1 ECX = 0 (no OSXSAVE, no AVX) and XCR0 = 0 *)
Definition avx2_cpu : cpu :=
  {| max_leaf := 13; l1_ecx := 0x7ffafbff; l1_edx := 0xbfebfbff; l7_ebx0 := 0x20;
     l7_ebxN := 0; xcr0 := 7; oor_ebx := 0 |}.
Theorem probe256_orig_ambient_refuted :
  exists b c a1 a2, probe256_orig b c a1 <> probe256_orig b c a2.
Proof.
  exists {| has128 := true; has256 := true |}, avx2_cpu, 0, 1. vm_compute. discriminate.
Qed.
Definition avx2_without_os : cpu :=
  {| max_leaf := 13; l1_ecx := 0; l1_edx := 0xbfebfbff; l7_ebx0 := 0x20;
     l7_ebxN := 0; xcr0 := 0; oor_ebx := 0 |}.
Theorem probe256_orig_unsafe_refuted :
  exists b c, probe256_orig b c 0 = true /\ avx2_usable c = false.
Proof.
  exists {| has128 := true; has256 := true |}, avx2_without_os. vm_compute. auto.
Qed.

(* non-vacuity: a CPU on which each back end is selected *)
Example select_examples :
  select true {| has128 := true; has256 := true |} avx2_cpu 5 = BV256
  /\ select false {| has128 := true; has256 := true |} avx2_cpu 5 = BV128
  /\ select true {| has128 := true; has256 := true |} avx2_without_os 5 = BV128
  /\ select true {| has128 := false; has256 := false |} avx2_cpu 5 = BDef.
Proof. vm_compute. auto. Qed.
