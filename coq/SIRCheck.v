(* SIRCheck.v — checking WHOLE functions (SIR.v programs flattened on a public configuration) against
   specifications, for all data:
     - [check_obs]: one symbolic run compared on the observable regions only (scratch locals are ignored);
     - [check_block]: a flattened block function cut at its S-box layers ([split_runs]) into segments for
       IRCheck.check_segments_b, one specification step per segment;
     - [check_block_w]: the same with each segment run on a memory whose read-only region r (the key schedule object) is
       cut down to the window [off, off+len) that the segment reads (Frame.v). *)
From Coq Require Import List Bool Arith Lia.
From Skinny Require Import ListFacts IR Anf IRCheck Frame.
Import ListNotations.

Definition proj {B} (obs : list nat) (m : mem B) : mem B := map (fun r => nth r m []) obs.

Lemma proj_mmap : forall rho obs (m : mem poly), proj obs (mmap rho m) = mmap rho (proj obs m).
Proof.
  intros rho obs m. unfold proj, mmap. rewrite map_map. apply map_ext. intros r.
  exact (map_nth (map (vmap rho)) m [] r).
Qed.

Definition check_obs (cP : nat -> list poly -> list poly) (sizes obs : list nat) (p : list stmt)
                     (specP : mem poly -> mem poly) : bool :=
  mem_eqb (proj obs (fst (execP cP p (fresh_mem sizes, [])))) (specP (fresh_mem sizes)).

Theorem check_obs_sound : forall cP cB sizes obs p sP sB,
  call_hom cP cB -> spec_hom sizes sP sB -> check_obs cP sizes obs p sP = true ->
  forall m : mem bool, shaped sizes m -> proj obs (fst (execB cB p (m, []))) = sB m.
Proof.
  intros cP cB sizes obs p sP sB Hc Hs Hk m Hm. unfold check_obs in Hk. apply mem_eqb_eq in Hk.
  rewrite (execB_fresh cP cB sizes p m Hc Hm), proj_mmap, Hk, Hs by apply fresh_mem_shaped.
  rewrite fresh_mem_assign by exact Hm. reflexivity.
Qed.

Definition is_call (s : stmt) : bool :=
  match s with
  | SStore r off n (ECall _ (ELoad r' off' n')) => (Nat.eqb r r' && Nat.eqb off off' && Nat.eqb n n')%bool
  | _ => false
  end.

(* groups maximal runs of call / non-call statements; [cur] is the run being built (reversed) of kind [k] *)
Fixpoint split_runs_from (p : list stmt) (cur : list stmt) (k : bool) : list (list stmt) :=
  match p with
  | [] => match cur with [] => [] | _ => [rev cur] end
  | s :: p' =>
      if Bool.eqb (is_call s) k then split_runs_from p' (s :: cur) k
      else match cur with
           | [] => split_runs_from p' [s] (is_call s)
           | _ => rev cur :: split_runs_from p' [s] (is_call s)
           end
  end.
Definition split_runs (p : list stmt) : list (list stmt) := split_runs_from p [] false.

Lemma split_runs_from_concat : forall p cur k, concat (split_runs_from p cur k) = rev cur ++ p.
Proof.
  induction p as [|s p IH]; intros cur k; cbn [split_runs_from].
  - destruct cur; cbn [concat]; rewrite ?app_nil_r; reflexivity.
  - destruct (Bool.eqb (is_call s) k).
    + rewrite IH. cbn [rev]. rewrite <- app_assoc. reflexivity.
    + destruct cur as [|c cur]; cbn [concat]; rewrite IH; reflexivity.
Qed.
Theorem split_runs_concat : forall p, concat (split_runs p) = p.
Proof. intros p. unfold split_runs. rewrite split_runs_from_concat. reflexivity. Qed.

Fixpoint zip_segs (runs : list (list stmt)) (sP : list (mem poly -> mem poly)) (sB : list (mem bool -> mem bool))
  : option (list segment) :=
  match runs, sP, sB with
  | [], [], [] => Some []
  | r :: runs', p :: sP', b :: sB' =>
      match zip_segs runs' sP' sB' with Some l => Some (mkSeg r p b :: l) | None => None end
  | _, _, _ => None
  end.

Lemma zip_segs_spec : forall runs sP sB segs, zip_segs runs sP sB = Some segs ->
  runs = map seg_prog segs /\ sP = map seg_specP segs /\ sB = map seg_specB segs.
Proof.
  induction runs as [|r runs IH]; intros [|p sP] [|b sB] segs H; cbn [zip_segs] in H; try discriminate.
  - inversion H. repeat split.
  - destruct (zip_segs runs sP sB) as [l|] eqn:E; [|discriminate]. inversion H.
    destruct (IH _ _ _ E) as (-> & -> & ->). repeat split.
Qed.

Lemma Forall2_map_same : forall {A X Y} (R : X -> Y -> Prop) (f : A -> X) (g : A -> Y) l,
  Forall2 R (map f l) (map g l) -> Forall (fun a => R (f a) (g a)) l.
Proof. induction l as [|a l IH]; intros H; inversion H; constructor; auto. Qed.

Definition check_block (cP : nat -> list poly -> list poly) (sizes : list nat) (code : list stmt)
           (sP : list (mem poly -> mem poly)) (sB : list (mem bool -> mem bool)) : bool :=
  match zip_segs (split_runs code) sP sB with
  | Some segs => check_segments_b cP sizes segs
  | None => false
  end.

Theorem check_block_sound : forall cP cB sizes code sP sB,
  call_hom cP cB -> Forall2 (spec_hom sizes) sP sB ->
  check_block cP sizes code sP sB = true ->
  forall m, shaped sizes m ->
  fst (execB cB code (m, [])) = fold_left (fun acc f => f acc) sB m.
Proof.
  intros cP cB sizes code sP sB Hc HF Hk m Hm. unfold check_block in Hk.
  destruct (zip_segs (split_runs code) sP sB) as [segs|] eqn:E; [|discriminate].
  destruct (zip_segs_spec _ _ _ _ E) as (Er & -> & ->).
  rewrite <- (split_runs_concat code), Er, fold_left_map_gen.
  apply (check_segments_b_sound cP cB sizes segs Hc); [ | exact Hk | exact Hm].
  apply Forall2_map_same, HF.
Qed.

Lemma spec_hom_compose : forall sizes f1P f1B f2P f2B,
  spec_hom sizes f1P f1B -> spec_hom sizes f2P f2B ->
  (forall m : mem poly, shaped sizes m -> shaped sizes (f1P m)) ->
  spec_hom sizes (fun m => f2P (f1P m)) (fun m => f2B (f1B m)).
Proof.
  intros sizes f1P f1B f2P f2B H1 H2 Hs rho m Hm.
  rewrite H2 by (apply Hs; exact Hm). rewrite H1 by exact Hm. reflexivity.
Qed.

Record wseg : Type := mkW {
  w_prog : list stmt;
  w_off : nat;
  w_specP : mem poly -> mem poly;
  w_specB : mem bool -> mem bool
}.

Section Windowed.
  Variable cP : nat -> list poly -> list poly.
  Variable cB : nat -> list bool -> list bool.
  Variable sizes : list nat.
  Variables (r len : nat).
  Definition sizesW : list nat := set_nth r len sizes.

  Lemma window_shaped : forall a (m : mem bool), shaped sizes m -> r < length sizes -> a + len <= nth r sizes 0 ->
    shaped sizesW (window bool r a len m).
  Proof.
    intros a m [Hl Hr] Hlt Ha. unfold sizesW, window. split.
    - rewrite !set_nth_length. exact Hl.
    - rewrite set_nth_length. intros r' Hr'.
      destruct (Nat.eq_dec r' r) as [->|Hne].
      + rewrite !nth_set_nth_eq by lia. destruct (Hr r Hlt) as [H1 H2]. split.
        * rewrite firstn_length, skipn_length. lia.
        * apply Forall_forall. intros x Hx. rewrite Forall_forall in H2. apply H2.
          apply (In_skipn a). apply (In_firstn len). exact Hx.
      + rewrite !nth_set_nth_ne by congruence. apply Hr. exact Hr'.
  Qed.

  Definition wseg_ok (s : wseg) : bool :=
    match reloc r (w_off s) len (w_prog s) with
    | Some pW => check_kernel cP sizesW pW (w_specP s) && stores_in_bounds sizes (w_prog s) &&
                 locals_closed (w_prog s) && Nat.leb (w_off s + len) (nth r sizes 0)
    | None => false
    end.
  (* what segment [s] does to the whole memory: its specification on the window at [w_off s], written back *)
  Definition wseg_step (s : wseg) (m : mem bool) : mem bool :=
    unwindow bool r m (w_specB s (window bool r (w_off s) len m)).

  Hypothesis Hc : call_hom cP cB.
  Hypothesis Hr : r < length sizes.

  Lemma wseg_sound : forall s, spec_hom sizesW (w_specP s) (w_specB s) -> wseg_ok s = true ->
    forall m loc, shaped sizes m ->
    fst (execB cB (w_prog s) (m, loc)) = wseg_step s m /\ shaped sizes (fst (execB cB (w_prog s) (m, loc))).
  Proof.
    intros s Hs Hk m loc Hm. unfold wseg_ok in Hk.
    destruct (reloc r (w_off s) len (w_prog s)) as [pW|] eqn:Er; [|discriminate].
    apply andb_true_iff in Hk as [[[H1 H2]%andb_true_iff H3]%andb_true_iff H4%Nat.leb_le].
    split; [|apply exec_shaped; assumption].
    rewrite execB_closed by exact H3.
    assert (Hlen : r < length m) by (destruct Hm as [Hl _]; lia).
    pose proof (exec_by_window bool xorb andb false true cB r (w_off s) len (w_prog s) pW m [] Hlen Er) as Hw.
    unfold execB. etransitivity; [exact Hw|].
    unfold wseg_step. f_equal.
    apply (check_kernel_sound cP cB sizesW pW (w_specP s) (w_specB s) Hc Hs H1).
    apply window_shaped; assumption.
  Qed.

  Theorem wsegs_sound : forall segs,
    Forall (fun s => spec_hom sizesW (w_specP s) (w_specB s)) segs ->
    forallb wseg_ok segs = true ->
    forall m loc, shaped sizes m ->
    fst (execB cB (concat (map w_prog segs)) (m, loc)) = fold_left (fun acc s => wseg_step s acc) segs m.
  Proof.
    induction segs as [|s segs IH]; intros Hh Hk m loc Hm; [reflexivity|].
    inversion Hh as [|s' segs' Hs Hh']; subst. cbn [forallb] in Hk. apply andb_true_iff in Hk as [K1 K2].
    cbn [map concat fold_left]. rewrite execB_app.
    destruct (wseg_sound s Hs K1 m loc Hm) as [E Sh].
    destruct (execB cB (w_prog s) (m, loc)) as [m1 loc1]. cbn [fst] in E, Sh. subst m1.
    apply (IH Hh' K2 _ loc1 Sh).
  Qed.
End Windowed.

Fixpoint zip_wsegs (runs : list (list stmt)) (offs : list nat) (sP : list (mem poly -> mem poly))
                   (sB : list (mem bool -> mem bool)) : option (list wseg) :=
  match runs, offs, sP, sB with
  | [], [], [], [] => Some []
  | c :: runs', o :: offs', p :: sP', b :: sB' =>
      match zip_wsegs runs' offs' sP' sB' with Some l => Some (mkW c o p b :: l) | None => None end
  | _, _, _, _ => None
  end.
Lemma zip_wsegs_spec : forall runs offs sP sB segs, zip_wsegs runs offs sP sB = Some segs ->
  runs = map w_prog segs /\ offs = map w_off segs /\ sP = map w_specP segs /\ sB = map w_specB segs.
Proof.
  induction runs as [|c runs IH]; intros [|o offs] [|p sP] [|b sB] segs H; cbn [zip_wsegs] in H; try discriminate.
  - inversion H. repeat split.
  - destruct (zip_wsegs runs offs sP sB) as [l|] eqn:E; [|discriminate]. inversion H.
    destruct (IH _ _ _ _ E) as (-> & -> & -> & ->). repeat split.
Qed.
Lemma wsegs_fold : forall r len segs m,
  fold_left (fun acc (ob : nat * (mem bool -> mem bool)) => unwindow bool r acc (snd ob (window bool r (fst ob) len acc)))
            (combine (map w_off segs) (map w_specB segs)) m
  = fold_left (fun acc s => wseg_step r len s acc) segs m.
Proof. intros r len. induction segs as [|s segs IH]; intros m; [reflexivity | apply IH]. Qed.

Definition check_block_w (cP : nat -> list poly -> list poly) (sizes : list nat) (r len : nat) (code : list stmt)
           (offs : list nat) (sP : list (mem poly -> mem poly)) (sB : list (mem bool -> mem bool)) : bool :=
  match zip_wsegs (split_runs code) offs sP sB with
  | Some segs => forallb (wseg_ok cP sizes r len) segs && Nat.ltb r (length sizes)
  | None => false
  end.

Theorem check_block_w_sound : forall cP cB sizes r len code offs sP sB,
  call_hom cP cB -> Forall2 (spec_hom (sizesW sizes r len)) sP sB ->
  check_block_w cP sizes r len code offs sP sB = true ->
  forall m, shaped sizes m ->
  fst (execB cB code (m, []))
  = fold_left (fun acc (ob : nat * (mem bool -> mem bool)) =>
                 unwindow bool r acc (snd ob (window bool r (fst ob) len acc))) (combine offs sB) m.
Proof.
  intros cP cB sizes r len code offs sP sB Hc HF Hk m Hm. unfold check_block_w in Hk.
  destruct (zip_wsegs (split_runs code) offs sP sB) as [segs|] eqn:E; [|discriminate].
  apply andb_true_iff in Hk as [K1 K2%Nat.ltb_lt].
  destruct (zip_wsegs_spec _ _ _ _ _ E) as (Er & -> & -> & ->).
  rewrite <- (split_runs_concat code), Er, wsegs_fold.
  apply (wsegs_sound cP cB sizes r len Hc K2 segs); [ | exact K1 | exact Hm].
  apply Forall2_map_same, HF.
Qed.
