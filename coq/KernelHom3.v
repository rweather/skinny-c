(* KernelHom3.v — the SIMD (row-sliced) specification steps of KernelSpecs3.v commute with a homomorphism of bit
   carriers, for every lane count n ([_homG], [_hom] as in KernelHom.v); a vector step is the scalar step of
   KernelSpecs.v on every block, and the two layers of a vector round compose lane-wise to the scalar round.
   The lifting combinators only move bits, so their [_homG] lemmas hold for any map [h] of carriers. In the lane
   lemmas a plain suffix [G] ([vblock_vliftG], [vlift_schedG], [kv128_round_schedG]) marks the statement for any
   carrier [B]; the name without it is the instance at bool. *)
From Coq Require Import List Arith Lia.
From Skinny Require Import ListFacts Bits SpecSkinny IR Anf IRCheck KernelSpecs KernelHom KernelSpecs3.
Import ListNotations.

Section CarrierHom3.
  Variables B1 B2 : Type.
  Variable h : B1 -> B2.

  Notation hb := (map (map h)).
  Notation hm := (map (map (map h))).

  Lemma lane_bytes_homG : forall j (r : list (list B1)),
    hb (lane_bytes B1 j r) = lane_bytes B2 j (hb r).
  Proof. intros j r. unfold lane_bytes. rewrite <- firstn_map, <- skipn_map. reflexivity. Qed.

  Lemma vblock_homG : forall (m : mem B1) j, hb (vblock B1 m j) = vblock B2 (hm m) j.
  Proof.
    intros m j. unfold vblock. rewrite !map_app, !lane_bytes_homG, !(reg_homG B1 B2 h). reflexivity.
  Qed.

  Lemma vrow_homG : forall i (blocks : list (list (list B1))),
    hb (vrow B1 i blocks) = vrow B2 i (map hb blocks).
  Proof.
    intros i blocks. unfold vrow. rewrite concat_map, !map_map. f_equal.
    apply map_ext. intros blk. rewrite <- firstn_map, <- skipn_map. reflexivity.
  Qed.

  Lemma vlift_homG : forall n (f1 : mem B1 -> mem B1) (f2 : mem B2 -> mem B2),
    (forall m, hm (f1 m) = f2 (hm m)) ->
    forall m, hm (vlift B1 n f1 m) = vlift B2 n f2 (hm m).
  Proof.
    intros n f1 f2 Hf m. unfold vlift. cbv zeta. cbn [map].
    rewrite !vrow_homG, <- (reg_homG B1 B2 h m 4), map_map.
    rewrite (map_ext _ (fun j => reg B2 (f2 [vblock B2 (hm m) j; reg B2 (hm m) 4]) 0)); [reflexivity|].
    intros j. rewrite <- (reg_homG B1 B2 h), Hf. cbn [map].
    rewrite vblock_homG, (reg_homG B1 B2 h m 4). reflexivity.
  Qed.

  Lemma spec_allbytes_homG : forall f1 f2, (forall l, map h (f1 l) = f2 (map h l)) ->
    forall m, hm (spec_allbytes B1 f1 m) = spec_allbytes B2 f2 (hm m).
  Proof.
    intros f1 f2 Hf m. unfold spec_allbytes. rewrite !map_map. apply map_ext. intros r.
    rewrite !map_map. apply map_ext, Hf.
  Qed.
End CarrierHom3.

Lemma kv128_subcells_hom : forall n sizes,
  spec_hom sizes (kv128_subcells poly pxor pand pzero pone n) (kv128_subcells bool xorb andb false true n).
Proof. intros n. hom_by vlift_homG, k128_subcells_homG. Qed.
Lemma kv128_subcells_inv_hom : forall n sizes,
  spec_hom sizes (kv128_subcells_inv poly pxor pand pzero pone n)
                 (kv128_subcells_inv bool xorb andb false true n).
Proof. intros n. hom_by vlift_homG, k128_subcells_inv_homG. Qed.
Lemma kv128_enc_linear_hom : forall n sizes,
  spec_hom sizes (kv128_enc_linear poly pxor pzero pone n) (kv128_enc_linear bool xorb false true n).
Proof. intros n. hom_by vlift_homG, k128_enc_linear_homG. Qed.
Lemma kv128_dec_linear_hom : forall n sizes,
  spec_hom sizes (kv128_dec_linear poly pxor pzero pone n) (kv128_dec_linear bool xorb false true n).
Proof. intros n. hom_by vlift_homG, k128_dec_linear_homG. Qed.
Lemma kv_sbox128_hom : forall sizes,
  spec_hom sizes (kv_sbox128 poly pxor pand pzero pone) (kv_sbox128 bool xorb andb false true).
Proof. hom_by spec_allbytes_homG, on_byte8_homG, h8_S8. Qed.
Lemma kv_inv_sbox128_hom : forall sizes,
  spec_hom sizes (kv_inv_sbox128 poly pxor pand pzero pone) (kv_inv_sbox128 bool xorb andb false true).
Proof. hom_by spec_allbytes_homG, on_byte8_homG, h8_S8inv. Qed.

(* Lane-wise meaning of the vector steps (any carrier; no polynomials involved). *)
Section Lanes.
  Variable B : Type.
  Variables (bx ba : B -> B -> B) (b0 b1 : B).

  Lemma lane_bytes_vrow : forall i j (blocks : list (list (list B))), i < 4 ->
    Forall (fun blk => length blk = 16) blocks ->
    lane_bytes B j (vrow B i blocks) = firstn 4 (skipn (4 * i) (nth j blocks [])).
  Proof.
    intros i j blocks Hi Hb. unfold lane_bytes, vrow. rewrite firstn_skipn_concat.
    - apply (nth_map_d (fun blk : list (list B) => firstn 4 (skipn (4 * i) blk))).
      rewrite skipn_nil. apply firstn_nil.
    - apply Forall_map. apply (Forall_impl _ (P := fun blk => length blk = 16)); [|exact Hb].
      intros blk Hl. rewrite firstn_length, skipn_length. lia.
  Qed.

  Lemma rows_of_block16 : forall blk : list (list B), length blk = 16 ->
    firstn 4 (skipn (4 * 0) blk) ++ firstn 4 (skipn (4 * 1) blk) ++
    firstn 4 (skipn (4 * 2) blk) ++ firstn 4 (skipn (4 * 3) blk) = blk.
  Proof.
    intros blk Hb. transitivity (firstn 16 blk); [|rewrite <- Hb; apply firstn_all].
    change 16 with (4 + (4 + (4 + 4))). rewrite !firstn_add, <- !skipn_add. reflexivity.
  Qed.

  Lemma vblock_vliftG : forall n (f : mem B -> mem B) m j, j < n ->
    (forall x, length (reg B (f x) 0) = 16) ->
    vblock B (vlift B n f m) j = reg B (f [vblock B m j; reg B m 4]) 0.
  Proof.
    intros n f m j Hj Hlen. unfold vlift. cbv zeta.
    set (blocks := map (fun j0 => reg B (f [vblock B m j0; reg B m 4]) 0) (seq 0 n)).
    assert (Hb : Forall (fun blk => length blk = 16) blocks).
    { apply Forall_map, Forall_forall. intros j0 _. apply Hlen. }
    unfold vblock. cbn [reg nth].
    rewrite !lane_bytes_vrow by (try exact Hb; lia).
    unfold blocks. rewrite (nth_map_seq _ n j [] Hj). apply rows_of_block16, Hlen.
  Qed.

  Lemma vlift_schedG : forall n (f : mem B -> mem B) m, reg B (vlift B n f m) 4 = reg B m 4.
  Proof. reflexivity. Qed.

  Lemma length_reg_of_state128 : forall s, length (reg_of_state128 B s) = 16.
  Proof. intros s. dstate s. reflexivity. Qed.

  Lemma kv128_round_schedG : forall n m,
    reg B (kv128_enc_linear B bx b0 b1 n (kv128_subcells B bx ba b0 b1 n m)) 4 = reg B m 4.
  Proof. reflexivity. Qed.
  Lemma kv128_round_inv_schedG : forall n m,
    reg B (kv128_subcells_inv B bx ba b0 b1 n (kv128_dec_linear B bx b0 b1 n m)) 4 = reg B m 4.
  Proof. reflexivity. Qed.
End Lanes.

Definition blocks_of (n : nat) (m : mem bool) : list (list (list bool)) := map (vblock bool m) (seq 0 n).

(* block j of a lifted step = the scalar step on block j *)
Lemma vblock_vlift : forall n f m j, j < n -> (forall x, length (reg bool (f x) 0) = 16) ->
  vblock bool (vlift bool n f m) j = reg bool (f [vblock bool m j; reg bool m 4]) 0.
Proof. exact (vblock_vliftG bool). Qed.
Lemma vlift_sched : forall n f m, reg bool (vlift bool n f m) 4 = reg bool m 4.
Proof. reflexivity. Qed.

Lemma length_k128_subcells_bool : forall x,
  length (reg bool (k128_subcells bool xorb andb false true x) 0) = 16.
Proof. intros x. apply length_reg_of_state128. Qed.
Lemma length_k128_subcells_inv_bool : forall x,
  length (reg bool (k128_subcells_inv bool xorb andb false true x) 0) = 16.
Proof. intros x. apply length_reg_of_state128. Qed.
Lemma length_k128_enc_linear_bool : forall x,
  length (reg bool (k128_enc_linear bool xorb false true x) 0) = 16.
Proof. intros x. apply length_reg_of_state128. Qed.
Lemma length_k128_dec_linear_bool : forall x,
  length (reg bool (k128_dec_linear bool xorb false true x) 0) = 16.
Proof. intros x. apply length_reg_of_state128. Qed.

Lemma kv128_subcells_lane : forall n m j, j < n ->
  vblock bool (kv128_subcells bool xorb andb false true n m) j =
  reg bool (k128_subcells bool xorb andb false true [vblock bool m j; reg bool m 4]) 0.
Proof. intros n m j Hj. apply vblock_vlift; [exact Hj | exact length_k128_subcells_bool]. Qed.
Lemma kv128_subcells_inv_lane : forall n m j, j < n ->
  vblock bool (kv128_subcells_inv bool xorb andb false true n m) j =
  reg bool (k128_subcells_inv bool xorb andb false true [vblock bool m j; reg bool m 4]) 0.
Proof. intros n m j Hj. apply vblock_vlift; [exact Hj | exact length_k128_subcells_inv_bool]. Qed.
Lemma kv128_enc_linear_lane : forall n m j, j < n ->
  vblock bool (kv128_enc_linear bool xorb false true n m) j =
  reg bool (k128_enc_linear bool xorb false true [vblock bool m j; reg bool m 4]) 0.
Proof. intros n m j Hj. apply vblock_vlift; [exact Hj | exact length_k128_enc_linear_bool]. Qed.
Lemma kv128_dec_linear_lane : forall n m j, j < n ->
  vblock bool (kv128_dec_linear bool xorb false true n m) j =
  reg bool (k128_dec_linear bool xorb false true [vblock bool m j; reg bool m 4]) 0.
Proof. intros n m j Hj. apply vblock_vlift; [exact Hj | exact length_k128_dec_linear_bool]. Qed.

(* the two layers of a vector round compose lane-wise to the scalar round *)
Lemma kv128_round_lane : forall n m j, j < n ->
  vblock bool (kv128_enc_linear bool xorb false true n (kv128_subcells bool xorb andb false true n m)) j
  = reg bool (k128_enc_linear bool xorb false true
               (k128_subcells bool xorb andb false true [vblock bool m j; reg bool m 4])) 0.
Proof.
  intros n m j Hj. rewrite (kv128_enc_linear_lane n _ j Hj), (kv128_subcells_lane n m j Hj).
  reflexivity.
Qed.
Lemma kv128_round_inv_lane : forall n m j, j < n ->
  vblock bool (kv128_subcells_inv bool xorb andb false true n (kv128_dec_linear bool xorb false true n m)) j
  = reg bool (k128_subcells_inv bool xorb andb false true
               (k128_dec_linear bool xorb false true [vblock bool m j; reg bool m 4])) 0.
Proof.
  intros n m j Hj. rewrite (kv128_subcells_inv_lane n _ j Hj), (kv128_dec_linear_lane n m j Hj).
  reflexivity.
Qed.
Lemma kv128_round_sched : forall n m,
  reg bool (kv128_enc_linear bool xorb false true n (kv128_subcells bool xorb andb false true n m)) 4
  = reg bool m 4.
Proof. reflexivity. Qed.
Lemma kv128_round_inv_sched : forall n m,
  reg bool (kv128_subcells_inv bool xorb andb false true n (kv128_dec_linear bool xorb false true n m)) 4
  = reg bool m 4.
Proof. reflexivity. Qed.

(* lane j of a vector round, in terms of the paper-level round functions (via KernelHom.k128_round_*_is_spec_bool) *)
Lemma kv128_round_lane_spec : forall n m j, j < n ->
  vblock bool (kv128_enc_linear bool xorb false true n (kv128_subcells bool xorb andb false true n m)) j
  = reg_of_state128 bool
      (mix_columns byte (cx8 bool xorb) (shift_rows byte
         (add_c2_ (cx8 bool xorb) (nib8 bool false true false false true false)
            (add_round_tweakey byte (cx8 bool xorb) (half128_of_reg bool false (reg bool m 4))
               (sub_cells byte (S8_ bool xorb andb true) (state128_of_reg bool false (vblock bool m j))))))).
Proof.
  intros n m j Hj. rewrite (kv128_round_lane n m j Hj), k128_round_is_spec_bool. reflexivity.
Qed.
Lemma kv128_round_inv_lane_spec : forall n m j, j < n ->
  vblock bool (kv128_subcells_inv bool xorb andb false true n (kv128_dec_linear bool xorb false true n m)) j
  = reg_of_state128 bool
      (sub_cells_inv byte (S8inv_ bool xorb andb true)
         (add_c2_ (cx8 bool xorb) (nib8 bool false true false false true false)
            (add_round_tweakey byte (cx8 bool xorb) (half128_of_reg bool false (reg bool m 4))
               (shift_rows_inv byte (mix_columns_inv byte (cx8 bool xorb)
                  (state128_of_reg bool false (vblock bool m j))))))).
Proof.
  intros n m j Hj. rewrite (kv128_round_inv_lane n m j Hj), k128_round_inv_is_spec_bool. reflexivity.
Qed.

Lemma kv128_round_blocks : forall n m,
  blocks_of n (kv128_enc_linear bool xorb false true n (kv128_subcells bool xorb andb false true n m))
  = map (fun blk => reg bool (k128_enc_linear bool xorb false true
                                (k128_subcells bool xorb andb false true [blk; reg bool m 4])) 0)
        (blocks_of n m).
Proof.
  intros n m. unfold blocks_of. rewrite map_map. apply map_ext_in. intros j Hj.
  apply in_seq in Hj. apply kv128_round_lane. lia.
Qed.
Lemma kv128_round_inv_blocks : forall n m,
  blocks_of n (kv128_subcells_inv bool xorb andb false true n (kv128_dec_linear bool xorb false true n m))
  = map (fun blk => reg bool (k128_subcells_inv bool xorb andb false true
                                (k128_dec_linear bool xorb false true [blk; reg bool m 4])) 0)
        (blocks_of n m).
Proof.
  intros n m. unfold blocks_of. rewrite map_map. apply map_ext_in. intros j Hj.
  apply in_seq in Hj. apply kv128_round_inv_lane. lia.
Qed.

Print Assumptions kv128_subcells_hom.
Print Assumptions kv128_subcells_inv_hom.
Print Assumptions kv128_enc_linear_hom.
Print Assumptions kv128_dec_linear_hom.
Print Assumptions kv_sbox128_hom.
Print Assumptions kv_inv_sbox128_hom.
Print Assumptions vblock_vlift.
Print Assumptions vlift_sched.
Print Assumptions length_k128_subcells_bool.
Print Assumptions length_k128_subcells_inv_bool.
Print Assumptions length_k128_enc_linear_bool.
Print Assumptions length_k128_dec_linear_bool.
Print Assumptions kv128_subcells_lane.
Print Assumptions kv128_subcells_inv_lane.
Print Assumptions kv128_enc_linear_lane.
Print Assumptions kv128_dec_linear_lane.
Print Assumptions kv128_round_lane.
Print Assumptions kv128_round_inv_lane.
Print Assumptions kv128_round_sched.
Print Assumptions kv128_round_inv_sched.
Print Assumptions kv128_round_lane_spec.
Print Assumptions kv128_round_inv_lane_spec.
Print Assumptions kv128_round_blocks.
Print Assumptions kv128_round_inv_blocks.
