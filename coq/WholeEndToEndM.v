(* WholeEndToEndM.v — the capstone of WholeEndToEnd.v for MANTIS: mantis_set_key's whole-function specification (encryption
   mode, R rounds; tied to the C code by the mkey* parts) run on any prior 40-byte schedule object, followed by
   mantis_ecb_crypt's own translated code (mblk* parts) on the resulting object, yields SpecMantis.mantis_enc under the
   zero tweak — every 16-byte key, every block, every prior content of every buffer. *)
From Coq Require Import List NArith Lia.
From Skinny Require Import Bits SpecMantis IR SIR Anf SIRCheck ModelCipher ProofsMantis WholeBridge WholeMantis
                           WholeMantisKey WholeComposeM.
Import ListNotations.

Theorem c_mantis_set_key_then_crypt_spec :
  forall code fuel R pl pl' sh' c t,                                      (* mantis_ecb_crypt at R rounds *)
  5 <= R <= 8 ->
  flat [mksfA] fuel pl [(mksfA, N.of_nat R)] code = Some (pl', sh', c, t) ->
  check_block callP msizesA c (msteps poly pxor pand pzero pone layA 24 R) (msteps bool xorb andb false true layA 24 R) = true ->
  forall (key ks0 out blk rcj Tj Kj Xj : list byte) (rest : mem bool),
  length key = 16 -> length ks0 = 40 -> length out = 8 -> length blk = 8 -> length rcj = 64 -> length Tj = 8 -> length Kj = 8 -> length Xj = 8 ->
  let ksobj := nth 0 (w_mantis_set_key bool xorb false true R true (bitsB ks0 :: bitsB key :: rest)) [] in
  exists st', interp [mksfA] callB fuel pl (([bitsB out; bitsB blk; ksobj; bitsB rcj; bitsB Tj; bitsB Kj; bitsB Xj] : mem bool), []) code
              = Some (pl', st', t)
    /\ nth 0 (fst st') [] = bitsB (mantis_enc R key (zeros 8) blk)
    /\ nth 1 (fst st') [] = bitsB blk /\ nth 2 (fst st') [] = ksobj.
Proof.
  intros code fuel R pl pl' sh' c t HR Hflat Hcheck key ks0 out blk rcj Tj Kj Xj rest Hk Hks Ho Hb Hrc HT HK HX. cbv zeta.
  destruct (w_mantis_set_key_model R 1%N key (bitsB ks0) rest Hk HR) as [_ HW]; [rewrite bitsB_length, Hks; repeat constructor|].
  cbv zeta in HW. change (N.eqb 1 1) with true in HW. rewrite HW. cbn [nth]. clear HW.
  assert (HR' : (5 <= N.of_nat R <= 8)%N) by lia.
  destruct (mantis_model_spec (mantis_fresh nib0) key (zeros 8) blk (N.of_nat R) Hk eq_refl Hb HR') as (ke & kd & Hke & _ & Hcr & _).
  rewrite Hke. cbn [snd].
  assert (Hrounds : N.to_nat (mk_rounds ke) = R).
  { rewrite (mantis_set_key_accepts _ key _ 1 HR') in Hke. injection Hke as <-. exact (Nat2N.id R). }
  rewrite Hrounds, skipn_map.
  assert (Ht : length (skipn 36 ks0) = 4) by (rewrite skipn_length, Hks; reflexivity).
  destruct (mcryptA_on_mimageR code fuel R pl pl' sh' c t (proj2 HR) Hflat Hcheck out blk (skipn 36 ks0) rcj Tj Kj Xj ke
              Ho Hb Ht Hrc HT HK HX Hrounds) as [st' [Hint [Hout [H1 H2]]]].
  exists st'. repeat split; try assumption.
  rewrite Hout. f_equal. rewrite Hcr, Nat2N.id. reflexivity.
Qed.
Print Assumptions c_mantis_set_key_then_crypt_spec.
