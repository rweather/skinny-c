(* ListFacts.v — facts about the standard library's lists (firstn / skipn at a length boundary, combine, concat,
   nth over seq, folds, nth under firstn / skipn / map, map over repeat and last, the pieces of a concat of
   equal-length lists, filter on lists of numbers and under Permutation) that the proofs of several
   layers share; nothing here knows about ciphers or memories. *)
From Coq Require Import List Arith NArith Lia Permutation.
Import ListNotations.

Lemma skipn_add {A} : forall a b (l : list A), skipn (a + b) l = skipn b (skipn a l).
Proof.
  induction a as [|a IH]; intros b l; [reflexivity|].
  destruct l as [|x l]; cbn [skipn plus]; [now rewrite skipn_nil | apply IH].
Qed.
Lemma firstn_add {A} : forall a b (l : list A), firstn (a + b) l = firstn a l ++ firstn b (skipn a l).
Proof.
  induction a as [|a IH]; intros b [|x l]; cbn [plus firstn skipn app]; try reflexivity.
  - now rewrite firstn_nil.
  - now rewrite IH.
Qed.

Lemma firstn_app_le {A} n (l x : list A) : n <= length l -> firstn n (l ++ x) = firstn n l.
Proof. intros H. rewrite firstn_app. replace (n - length l) with 0 by lia. apply app_nil_r. Qed.
Lemma skipn_app_le {A} n (l x : list A) : n <= length l -> skipn n (l ++ x) = skipn n l ++ x.
Proof. intros H. rewrite skipn_app. now replace (n - length l) with 0 by lia. Qed.
Lemma firstn_app_exact {A} (p r : list A) n : length p = n -> firstn n (p ++ r) = p.
Proof. intros <-. rewrite firstn_app_le by apply le_n. apply firstn_all. Qed.
Lemma skipn_app_exact {A} (p r : list A) n : length p = n -> skipn n (p ++ r) = r.
Proof. intros <-. rewrite skipn_app_le by apply le_n. now rewrite skipn_all. Qed.

Lemma split_block {A} bs k (l : list A) : length l = S k * bs ->
  exists a r, l = a ++ r /\ length a = bs /\ length r = k * bs.
Proof.
  intros H. exists (firstn bs l), (skipn bs l).
  rewrite firstn_skipn, firstn_length, skipn_length. split; [reflexivity | lia].
Qed.
Lemma combine_app {A C} (a1 : list A) : forall (b1 : list C) a2 b2, length a1 = length b1 ->
  combine (a1 ++ a2) (b1 ++ b2) = combine a1 b1 ++ combine a2 b2.
Proof.
  induction a1 as [|x a1 IH]; intros [|y b1] a2 b2 H; cbn in *; try discriminate; auto.
  f_equal. apply IH. lia.
Qed.

Lemma map_combine_diag {A B} (g : A -> B) : forall l : list A,
  map (fun p => g (snd p)) (combine l l) = map g l.
Proof. induction l as [|a l IH]; [reflexivity|]. cbn [combine map snd]. now rewrite IH. Qed.
Lemma map_combine_roundtrip {A B} (P : B -> Prop) (F G : A -> B -> B) :
  (forall a b, P b -> G a (F a b) = b) ->
  forall la lb, length la = length lb -> Forall P lb ->
    map (fun p => G (fst p) (snd p)) (combine la (map (fun p => F (fst p) (snd p)) (combine la lb)))
    = lb.
Proof.
  intros HGF. induction la as [|a la IH]; intros [|b lb] HL HP; try discriminate; [reflexivity|].
  inversion HP as [|? ? Hb HP']; subst. cbn [combine map fst snd].
  rewrite (HGF a b Hb), IH by (assumption || (injection HL; trivial)). reflexivity.
Qed.

Lemma firstn_repeat {A} (x : A) : forall k n, k <= n -> firstn k (repeat x n) = repeat x k.
Proof.
  induction k as [|k IH]; intros [|n] H; simpl; auto; try lia.
  f_equal. apply IH. lia.
Qed.

Lemma concat_map_length {A B} (f : A -> list B) n :
  (forall x, length (f x) = n) -> forall l, length (concat (map f l)) = length l * n.
Proof.
  intros H l. induction l as [|a l IH]; [reflexivity|].
  cbn [map concat length]. rewrite app_length, H, IH. reflexivity.
Qed.

Lemma split_by_lengths {A} : forall (a b : list (list A)),
  concat a = concat b -> map (@length A) a = map (@length A) b -> a = b.
Proof.
  induction a as [|x a IH]; intros [|y b] Hc Hl; cbn in Hl; try discriminate; [reflexivity|].
  injection Hl as Hxy Hl. cbn [concat] in Hc.
  assert (Hx : x = y).
  { rewrite <- (firstn_app_exact x (concat a) _ eq_refl), Hc, Hxy. now apply firstn_app_exact. }
  subst y. apply app_inv_head in Hc. f_equal. now apply IH.
Qed.

Lemma nth_map_seq {A} (g : nat -> A) n j d : j < n -> nth j (map g (seq 0 n)) d = g j.
Proof.
  intros Hj. rewrite (nth_indep _ d (g 0)) by (rewrite map_length, seq_length; exact Hj).
  now rewrite map_nth, seq_nth.
Qed.
Lemma map_nth_seq {A} (l : list A) d : forall k n, k + n <= length l ->
  map (fun i => nth i l d) (seq k n) = firstn n (skipn k l).
Proof.
  induction l as [|x l IH]; intros k n H.
  - destruct n; [reflexivity | cbn [length] in H; lia].
  - cbn [length] in H. destruct k as [|k].
    + destruct n as [|n]; [reflexivity|]. cbn [seq map nth skipn firstn]. f_equal.
      rewrite <- seq_shift, map_map. apply (IH 0 n). lia.
    + rewrite <- seq_shift, map_map. apply (IH k n). lia.
Qed.
Lemma map_nth_seq_all {A} (l : list A) d : map (fun i => nth i l d) (seq 0 (length l)) = l.
Proof. rewrite map_nth_seq by apply le_n. apply firstn_all. Qed.

Lemma fold_left_map_ext {A B S} (f : S -> B -> S) (g : A -> B) (h : S -> A -> S) :
  (forall s a, f s (g a) = h s a) -> forall l s, fold_left f (map g l) s = fold_left h l s.
Proof. intros H. induction l as [|a l IH]; intros s; simpl; [reflexivity|]. now rewrite H. Qed.
Lemma fold_left_map_gen {A B S} (f : S -> B -> S) (g : A -> B) : forall l s,
  fold_left f (map g l) s = fold_left (fun x a => f x (g a)) l s.
Proof. now apply fold_left_map_ext. Qed.
(* a map that commutes with every step commutes with the fold *)
Lemma fold_left_fusion {S T E} (f : E -> S -> S) (k : T -> E -> T) (g : S -> T) :
  (forall e s, g (f e s) = k (g s) e) ->
  forall l s0, g (fold_left (fun s e => f e s) l s0) = fold_left k l (g s0).
Proof.
  intros H l. induction l as [|e l IH]; intros s0; [reflexivity|].
  cbn [fold_left]. now rewrite IH, H.
Qed.
(* undoing the steps of a fold in reverse order *)
Lemma fold_left_rev_inv {S K} (f g : S -> K -> S) : (forall k s, g (f s k) k = s) ->
  forall ks s, fold_left g (rev ks) (fold_left f ks s) = s.
Proof.
  intros H. induction ks as [|k ks IH]; intros s; simpl; auto.
  rewrite fold_left_app. simpl. rewrite IH. apply H.
Qed.

Lemma nth_firstn_lt : forall {A} (l : list A) n i d, i < n -> nth i (firstn n l) d = nth i l d.
Proof.
  intros A l. induction l as [|x l IH]; intros n i d H.
  - rewrite firstn_nil. reflexivity.
  - destruct n as [|n]; [lia|]. destruct i as [|i]; [reflexivity|]. cbn [firstn nth]. apply IH. lia.
Qed.
Lemma nth_skipn' : forall {A} (l : list A) n i d, nth i (skipn n l) d = nth (n + i) l d.
Proof.
  intros A l n. revert l. induction n as [|n IH]; intros l i d; [reflexivity|].
  destruct l; [destruct i; reflexivity | apply IH].
Qed.
Lemma nth_map_d : forall {A A' : Type} (f : A -> A') l d d' i,
  f d = d' -> nth i (map f l) d' = f (nth i l d).
Proof. intros A A' f l d d' i <-. apply map_nth. Qed.

Lemma map_repeat' : forall {A B : Type} (f : A -> B) x n, map f (repeat x n) = repeat (f x) n.
Proof. intros A B f x n. induction n as [|n IH]; simpl; [reflexivity | rewrite IH; reflexivity]. Qed.
Lemma last_map' : forall {A B : Type} (f : A -> B) l d, last (map f l) (f d) = f (last l d).
Proof.
  intros A B f l d. induction l as [|x l IH]; [reflexivity|].
  destruct l as [|y l]; [reflexivity|].
  change (last (map f (x :: y :: l)) (f d)) with (last (map f (y :: l)) (f d)).
  rewrite IH. reflexivity.
Qed.

Lemma firstn_skipn_concat : forall {A} k (l : list (list A)) j,
  Forall (fun x => length x = k) l ->
  firstn k (skipn (k * j) (concat l)) = nth j l [].
Proof.
  intros A k l. induction l as [|a l IH]; intros j Hl.
  - cbn [concat]. rewrite skipn_nil, firstn_nil. destruct j; reflexivity.
  - inversion Hl as [|? ? Ha Hl']; subst. cbn [concat]. destruct j as [|j].
    + rewrite Nat.mul_0_r. cbn [skipn]. apply firstn_app_exact. reflexivity.
    + rewrite Nat.mul_succ_r, Nat.add_comm, skipn_add, (skipn_app_exact a _ _ eq_refl). apply IH, Hl'.
Qed.
Lemma slot_in_image : forall {A} (hdr : list A) (slots : list (list A)) sz i,
  Forall (fun s => length s = sz) slots -> i < length slots ->
  firstn sz (skipn (length hdr + sz * i) (hdr ++ concat slots)) = nth i slots [].
Proof.
  intros A hdr slots sz i Hs _. rewrite skipn_add, (skipn_app_exact hdr _ _ eq_refl). apply firstn_skipn_concat, Hs.
Qed.

Lemma Forall2_concat_map : forall {I X Y} (R : X -> Y -> Prop) (f : I -> list X) (g : I -> list Y) l,
  (forall i, Forall2 R (f i) (g i)) -> Forall2 R (concat (map f l)) (concat (map g l)).
Proof.
  intros I X Y R f g l H. induction l as [|i l IH]; [constructor|]. cbn [map concat]. apply Forall2_app; [apply H | exact IH].
Qed.

Lemma In_firstn : forall {A} n (l : list A) x, In x (firstn n l) -> In x l.
Proof. intros A n l x H. rewrite <- (firstn_skipn n l). apply in_or_app. left. exact H. Qed.
Lemma In_skipn : forall {A} n (l : list A) x, In x (skipn n l) -> In x l.
Proof. intros A n l x H. rewrite <- (firstn_skipn n l). apply in_or_app. right. exact H. Qed.

Lemma filter_absent {A : Type} (f : A -> N) l n : ~ In n (map f l) ->
  filter (fun a => negb (N.eqb (f a) n)) l = l.
Proof.
  induction l as [|a l IH]; intros H; [reflexivity|]. cbn in H. cbn [filter].
  destruct (N.eqb_spec (f a) n) as [E|_]; [tauto|]. cbn [negb]. f_equal. apply IH. tauto.
Qed.
Lemma filter_ne_not_in : forall l n, ~ In n (filter (fun m => negb (N.eqb m n)) l).
Proof.
  intros l n H. apply filter_In in H. destruct H as [_ H].
  rewrite N.eqb_refl in H. discriminate.
Qed.
Lemma perm_filter : forall (A : Type) (f : A -> bool) l l',
  Permutation l l' -> Permutation (filter f l) (filter f l').
Proof.
  intros A f l l' P. induction P; cbn [filter].
  - constructor.
  - destruct (f x); [constructor|]; assumption.
  - destruct (f x), (f y); try apply Permutation_refl. apply perm_swap.
  - eapply Permutation_trans; eassumption.
Qed.
