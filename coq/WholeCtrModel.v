(* WholeCtrModel.v — the CTR specification programs of WholeCtr.v, run on the byte image of a model CTR state with the procedure
   call interpreted as a block function E, ARE ModelCtr.crypt_loop: same output bytes, counter lanes, buffered key stream and
   offset.  After the facts about loads and stores of whole bytes that the steps rest on, the loop is proved once (gmicro_model:
   any batch size, any image function with four step facts); cmicro_model and pctr_model are its instance for the generic
   function (one lane, the counter block as it stands), WholeCtrVecModel.v has those for the SIMD layouts. *)
From Coq Require Import List NArith Arith Lia.
From Skinny Require Import ListFacts Bits ModelCtr ProofsCtr IR SIR Anf IRCheck KernelSpecs KernelSpecs2 KernelHom2
                           SIRProofs WholeBridge WholeKey WholeProc WholeCtr.
Import ListNotations.

Notation spl := (splice bool).
Definition slice {A} (l : list A) (off n : nat) : list A := firstn n (skipn off l).

(* IR.v's memory operations on regions of 8-bit bytes (bytes8): a store is a splice, a load is the concatenation of a slice,
   bytes_of undoes concat *)
Lemma store_bytes_splice : forall (new l : list (list bool)) off, off + length new <= length l ->
  store_bytes bool off new l = spl l off new.
Proof.
  intros new l off H. unfold splice. rewrite skipn_add.
  rewrite <- (firstn_skipn off l) at 1. rewrite <- (firstn_skipn (length new) (skipn off l)) at 1.
  apply store_bytes_at; rewrite firstn_length, ?skipn_length; lia.
Qed.

Definition bytes8 (l : list (list bool)) : Prop := Forall (fun b => length b = 8) l.
Lemma load_slice : forall (m : mem bool) r off n, bytes8 (nth r m []) -> off + n <= length (nth r m []) ->
  load bool false m r off n = concat (slice (nth r m []) off n).
Proof.
  intros m r off n H8 Hn. unfold load, slice. set (l := nth r m []) in *.
  rewrite <- (map_nth_seq l (byte0_ bool false) off n Hn). f_equal.
  revert off Hn. induction n as [|n IH]; intros off Hn; [reflexivity|]. cbn [seq map]. rewrite Nat.add_0_r. f_equal.
  - apply take_pad_id, (proj1 (Forall_nth _ _) H8). lia.
  - rewrite <- seq_shift, map_map, <- (IH (S off)) by lia. apply map_ext. intros i. rewrite Nat.add_succ_r. reflexivity.
Qed.

Lemma bytes_of_app_concat : forall (L : list (list bool)) rest, bytes8 L ->
  bytes_of bool false (length L) (concat L ++ rest) = L.
Proof.
  induction L as [|b L IH]; intros rest H; [reflexivity|]. inversion H as [|b' L' Hb HL]; subst.
  cbn [length bytes_of concat]. rewrite <- app_assoc, (firstn_app_exact b _ 8 Hb), (skipn_app_exact b _ 8 Hb), take_pad_id, IH by assumption.
  reflexivity.
Qed.
Lemma bytes_of_concat_n : forall (L : list (list bool)) n, bytes8 L -> length L = n -> bytes_of bool false n (concat L) = L.
Proof. intros L n H <-. rewrite <- (app_nil_r (concat L)). apply bytes_of_app_concat, H. Qed.
Lemma bytes_of_bytes8 : forall n l, bytes8 (bytes_of bool false n l).
Proof.
  induction n as [|n IH]; intros l; [constructor|]. cbn [bytes_of]. constructor; [apply take_pad_length | apply IH].
Qed.
(* a procedure call whose result is stored: if the interpretation returns the bits of the bytes res, they are spliced in *)
Lemma exec_call_store : forall cB (m : mem bool) loc r off n fno (args : list expr) (res : list byte) p,
  length res = n -> off + n <= length (nth r m []) ->
  cB fno (concat (map (evalB cB m loc) args)) = concat (bitsB res) ->
  execB cB (SStore r off n (ECall fno (EConcat args)) :: p) (m, loc)
  = execB cB p (set_nth r (spl (nth r m []) off (bitsB res)) m, loc).
Proof.
  intros cB m loc r off n fno args res p Hl Hn Hcb. unfold evalB in Hcb. unfold execB, exec. cbn [fold_left exec1 eval].
  unfold store. rewrite Hcb, (bytes_of_concat_n (bitsB res) n (bits_len8 _)), store_bytes_splice by (rewrite bitsB_length, Hl; trivial).
  reflexivity.
Qed.

Lemma sub_is_slice : forall (l : list (list bool)) off n, sub bool l off n = slice l off n.
Proof. reflexivity. Qed.
Lemma slice_bits : forall (l : list byte) off n, slice (bitsB l) off n = bitsB (slice l off n).
Proof. intros. unfold slice. rewrite skipn_map, firstn_map. reflexivity. Qed.

Lemma slice_mid : forall {A} (a x r : list A) o n, o + n <= length x ->
  slice (a ++ x ++ r) (length a + o) n = slice x o n.
Proof.
  intros A a x r o n H. unfold slice.
  rewrite skipn_add, (skipn_app_exact a _ _ eq_refl), skipn_app_le, firstn_app_le by (rewrite ?skipn_length; lia). reflexivity.
Qed.
Lemma slice_at : forall {A} (a x r : list A) n k, length a = n -> length x = k -> slice (a ++ x ++ r) n k = x.
Proof. intros A a x r n k <- <-. rewrite <- (Nat.add_0_r (length a)), slice_mid by lia. apply firstn_all. Qed.
Lemma slice_head : forall {A} (x r : list A) n, n <= length x -> slice (x ++ r) 0 n = firstn n x.
Proof. intros A x r n. apply firstn_app_le. Qed.

Lemma splice_bits_app : forall (O : list (list bool)) pos (a b : list byte), pos + length a + length b <= length O ->
  spl (spl O pos (bitsB a)) (pos + length a) (bitsB b) = spl O pos (bitsB (a ++ b)).
Proof. intros O pos a b H. rewrite map_app, splice_app, bitsB_length by (rewrite !bitsB_length; exact H). reflexivity. Qed.

Lemma skipn_nonempty_length : forall {A} (l : list A) n x r, skipn n l = x :: r -> n < length l.
Proof.
  intros A l n x r H. destruct (Nat.lt_ge_cases n (length l)) as [Hl|Hl]; [exact Hl|].
  rewrite skipn_all2 in H by exact Hl. discriminate.
Qed.

Lemma xor_byte_bits : forall x y : byte, map2 bool xorb (bits_of_c8 bool x) (bits_of_c8 bool y) = bits_of_c8 bool (bxor8 x y).
Proof. intros x y. d8 x. d8 y. reflexivity. Qed.
Lemma xorB_bits : forall a b : list byte, xorB bool xorb (bitsB a) (bitsB b) = bitsB (xor_bytes a b).
Proof.
  induction a as [|x a IH]; intros [|y b]; try reflexivity.
  unfold xorB in *. cbn [map combine fst snd xor_bytes]. rewrite IH, xor_byte_bits. reflexivity.
Qed.

(* one byte of the carry loop, for every carry that the 16-bit accumulator holds without wrapping *)
Lemma inc_step_spec : forall (c : N) (b : byte), (c + 255 < 65536)%N ->
  inc_step bool xorb andb false (cbits 16 c) (bits_of_c8 bool b)
  = (bits_of_c8 bool (byte_of_N (N_of_byte b + c)), cbits 16 (N.shiftr (N_of_byte b + c) 8)).
Proof.
  intros c b Hc. pose proof (N_of_byte_lt256 b) as Hb. unfold inc_step. cbv zeta.
  rewrite (bits_of_c8_cbits b), !byte_of_N_cbits, !(take_pad_cbits 32) by (intros _; cbn; lia).
  rewrite add_cbits, N.add_0_r, (take_pad_cbits 16 32), (take_pad_cbits 8 16), skipn_cbits, (N.add_comm c) by lia.
  rewrite (take_pad_cbits 16); [reflexivity|]. intros _. rewrite N.shiftr_div_pow2. apply N.div_lt_upper_bound; cbn; lia.
Qed.
Lemma inc_rev_bits_spec : forall (l : list byte) (c : N), (c + 255 < 65536)%N ->
  inc_rev_bits bool xorb andb false (bitsB l) (cbits 16 c) = bitsB (inc_rev l c).
Proof.
  induction l as [|b l IH]; intros c Hc; [reflexivity|].
  cbn [map inc_rev_bits inc_rev]. rewrite (inc_step_spec c b Hc). cbv zeta. rewrite IH; [reflexivity|].
  pose proof (N_of_byte_lt256 b). rewrite N.shiftr_div_pow2.
  assert ((N_of_byte b + c) / 2 ^ 8 < 256)%N by (apply N.div_lt_upper_bound; cbn; lia). lia.
Qed.
(* both counter increments, WholeCtr.incB (by 1) and WholeCtrVec.incK (by k), are ModelCtr.inc_counter; the bound is what the
   16-bit accumulator of the C code holds *)
Lemma inc_bits_spec : forall (k : N) (cnt : list byte), (k + 255 < 65536)%N ->
  rev (inc_rev_bits bool xorb andb false (rev (bitsB cnt)) (cbits 16 k)) = bitsB (inc_counter cnt k).
Proof.
  intros k cnt Hk. unfold inc_counter. rewrite <- map_rev, inc_rev_bits_spec, map_rev by exact Hk. reflexivity.
Qed.
Theorem incB_spec : forall cnt : list byte, incB bool xorb andb false true (bitsB cnt) = bitsB (inc_counter cnt 1).
Proof. intros cnt. apply (inc_bits_spec 1). reflexivity. Qed.
Print Assumptions incB_spec.


(* the specification steps on a context  KS ++ counter area ++ key stream ++ offset field ++ pad, the counter area
   being any CA of BSZ bytes (the counter block itself, or the row-sliced lanes of WholeCtrVecModel.v) *)
Section OnContext.
  Variables (BSZ coff : nat).
  Let eoff := coff + BSZ.
  Let ooff := coff + BSZ + BSZ.
  Variables (CO KS pad : list (list bool)) (inp : list byte).
  Hypothesis HKS : length KS = coff.
  Notation ctx CA ecnt off := (KS ++ CA ++ bitsB ecnt ++ rbytes off ++ pad).

  Lemma stepv_setoff : forall O CA (ecnt : list byte) off v, length CA = BSZ -> length ecnt = BSZ ->
    s_setoff bool false true ooff v [O; bitsB inp; CO; ctx CA ecnt off] = [O; bitsB inp; CO; ctx CA ecnt v].
  Proof.
    intros O CA ecnt off v Hc He. unfold s_setoff, mk4m, reg. cbn [nth]. fold (rbytes v).
    rewrite !(app_assoc CA), !(app_assoc KS), splice_mid; [reflexivity | | rewrite !rbytes_len; reflexivity].
    rewrite !app_length, bitsB_length, HKS, Hc, He. reflexivity.
  Qed.

  Lemma stepv_xor : forall O CA (ecnt : list byte) off pos o n, length CA = BSZ -> length ecnt = BSZ -> o + n <= BSZ ->
    s_xor bool xorb pos (eoff + o) n [O; bitsB inp; CO; ctx CA ecnt off]
    = [spl O pos (bitsB (xor_bytes (slice inp pos n) (slice ecnt o n))); bitsB inp; CO; ctx CA ecnt off].
  Proof.
    intros O CA ecnt off pos o n Hc He Hn. unfold s_xor, mk4m, reg. cbn [nth]. rewrite !sub_is_slice, slice_bits.
    replace eoff with (length (KS ++ CA)) by (rewrite app_length, HKS, Hc; reflexivity).
    rewrite (app_assoc KS CA), slice_mid, slice_bits, xorB_bits by (rewrite bitsB_length; lia). reflexivity.
  Qed.

  Variables (kn fno : nat) (cB : nat -> list bool -> list bool).
  Hypothesis HKS8 : bytes8 KS.
  Hypothesis Hpad8 : bytes8 pad.
  Hypothesis Hkn : kn <= coff.

  Lemma ctxv_bytes8 : forall CA (ecnt : list byte) off, bytes8 CA -> bytes8 (ctx CA ecnt off).
  Proof.
    intros. unfold bytes8. repeat (apply Forall_app; split); try apply bits_len8; try assumption. apply bytes_of_bytes8.
  Qed.

  (* 16 = sizeof(Skinny128CTR_t) = sizeof(Skinny64CTR_t) = sizeof(MantisCTR_t): the vtable and the context pointer (LP64);
     4 = the field [unsigned offset] that ends the context structure before its padding *)
  Lemma ctx_shaped : forall (out ecnt : list byte) CA off size plen, length out = size -> length inp = size ->
    length CO = 16 -> bytes8 CO -> length CA = BSZ -> bytes8 CA -> length ecnt = BSZ -> length pad = plen ->
    shaped [size; size; 16; coff + BSZ + BSZ + 4 + plen] [bitsB out; bitsB inp; CO; ctx CA ecnt off].
  Proof.
    intros out ecnt CA off size plen Ho Hi HCO HCO8 Hc Hc8 He Hp. apply shapedF_shaped.
    repeat constructor; rewrite ?bitsB_length; try assumption; try apply bits_len8.
    - rewrite !app_length, bitsB_length, rbytes_len, HKS, Hc, He, Hp. rewrite !Nat.add_assoc. reflexivity.
    - apply ctxv_bytes8. exact Hc8.
  Qed.

  Lemma stepv_proc : forall O CA (ecnt : list byte) off (enew : list byte),
    length CA = BSZ -> bytes8 CA -> length ecnt = BSZ -> length enew = BSZ ->
    cB fno (concat CA ++ concat (firstn kn KS)) = concat (bitsB enew) ->
    entry_sem cB (Some [pstmt BSZ kn coff eoff fno], ident bool) [O; bitsB inp; CO; ctx CA ecnt off] = [O; bitsB inp; CO; ctx CA enew off].
  Proof.
    intros O CA ecnt off enew Hc Hc8 He Hn Hcb. unfold entry_sem, pstmt. cbn [fst].
    assert (Ltot : length (ctx CA ecnt off) = coff + BSZ + BSZ + 4 + length pad)
      by (rewrite !app_length, bitsB_length, rbytes_len, HKS, Hc, He; lia).
    rewrite (exec_call_store cB _ _ _ _ _ _ _ enew [] Hn); cbn [nth set_nth map concat evalB eval fst execB exec fold_left].
    - rewrite !(app_assoc KS CA), splice_mid; [reflexivity | rewrite app_length, HKS, Hc; reflexivity | rewrite !bitsB_length; lia].
    - lia.
    - rewrite app_nil_r, !load_slice; cbn [nth]; try (apply ctxv_bytes8; exact Hc8); try lia.
      rewrite (slice_at KS CA _ coff BSZ HKS Hc), slice_head by lia. exact Hcb.
  Qed.
End OnContext.

Section OnImage.
  Variables (I CO KS pad : list (list bool)).
  Definition img (O : list (list bool)) (cnt ecnt : list byte) (off : nat) : mem bool :=
    [O; I; CO; KS ++ bitsB cnt ++ bitsB ecnt ++ rbytes off ++ pad].

  Lemma step_inc : forall bs O cnt ecnt off, length cnt = bs ->
    s_inc bool xorb andb false true bs (length KS) (img O cnt ecnt off) = img O (inc_counter cnt 1) ecnt off.
  Proof.
    intros bs O cnt ecnt off Hc. unfold s_inc, img, mk4m, reg. cbn [nth]. rewrite !sub_is_slice.
    rewrite (slice_at KS (bitsB cnt) _ _ bs eq_refl) by (rewrite bitsB_length; exact Hc).
    rewrite incB_spec, splice_mid by (rewrite ?bitsB_length, ?inc_counter_length; reflexivity). reflexivity.
  Qed.
End OnImage.

Lemma xor_slice : forall (inp ecnt : list byte) pos o n, pos + n <= length inp ->
  xor_bytes (slice inp pos n) (slice ecnt o n) = xor_bytes (firstn n (skipn pos inp)) (skipn o ecnt).
Proof.
  intros inp ecnt pos o n H. unfold slice. rewrite <- (xor_bytes_firstn (firstn n (skipn pos inp)) (skipn o ecnt)).
  rewrite firstn_length, skipn_length, Nat.min_l by lia. reflexivity.
Qed.

(* the program gmicro = ModelCtr.crypt_loop, for any image IMG of the model states with invariant ok on the lanes.
   ModelCtr's CTR state carries a key object to which a block function is applied; the contract of the call speaks of a
   block function E alone, so the key object is unit here and the block function is E whatever the key *)
Section GenLoop.
  Variables (bs L BSZ eoff ooff : nat) (call : stmt) (incs : list (entry bool)).
  Variable cB : nat -> list bool -> list bool.
  Variable E : list byte -> list byte.
  Variable inp : list byte.
  Variable ok : list (list byte) -> Prop.
  Variable IMG : list (list bool) -> list (list byte) -> list byte -> nat -> mem bool.
  Hypothesis HBS : BS bs L = BSZ.
  Hypothesis ok_inc : forall lanes, ok lanes -> ok (map (fun l => inc_counter l (N.of_nat L)) lanes).
  Hypothesis E_len : forall lanes, ok lanes -> length (concat (map E lanes)) = BSZ.
  Hypothesis Sproc : forall O lanes ecnt off, ok lanes -> length ecnt = BSZ ->
    entry_sem cB (Some [call], ident bool) (IMG O lanes ecnt off) = IMG O lanes (concat (map E lanes)) off.
  Hypothesis Sincs : forall O lanes ecnt off, ok lanes -> length ecnt = BSZ ->
    mixed_sem cB incs (IMG O lanes ecnt off) = IMG O (map (fun l => inc_counter l (N.of_nat L)) lanes) ecnt off.
  Hypothesis Sxor : forall O lanes ecnt off pos o n, ok lanes -> length ecnt = BSZ -> o + n <= BSZ ->
    s_xor bool xorb pos (eoff + o) n (IMG O lanes ecnt off)
    = IMG (spl O pos (bitsB (xor_bytes (slice inp pos n) (slice ecnt o n)))) lanes ecnt off.
  Hypothesis Soff : forall O lanes ecnt off v, ok lanes -> length ecnt = BSZ ->
    s_setoff bool false true ooff v (IMG O lanes ecnt off) = IMG O lanes ecnt v.

  Notation st lanes ecnt off := {| c_key := tt; c_lanes := lanes; c_ecounter := ecnt; c_off := off |}.
  Notation loop := (crypt_loop unit (fun _ => E) bs L).
  Notation spec := (gmicro bool xorb false true BSZ eoff ooff call incs).

  (* an xor step writes the chunk of output that crypt_loop produces in the same iteration *)
  Lemma xor_chunk : forall rest O lanes ecnt off pos epos o n, epos = eoff + o ->
    ok lanes -> length ecnt = BSZ -> o + n <= BSZ -> pos + n <= length inp ->
    mixed_sem cB ((None, s_xor bool xorb pos epos n) :: rest) (IMG O lanes ecnt off)
    = mixed_sem cB rest (IMG (spl O pos (bitsB (xor_bytes (firstn n (skipn pos inp)) (skipn o ecnt)))) lanes ecnt off).
  Proof.
    intros rest O lanes ecnt off pos epos o n -> Hc He Ho Hp.
    rewrite mixed_sem_cons, entry_sem_none, Sxor, xor_slice by assumption. reflexivity.
  Qed.

  (* one iteration: the entries that gmicro emits for it take the image along ProofsCtr.crypt_step *)
  Lemma gmicro_step : forall f off sz pos O lanes ecnt, ok lanes -> length ecnt = BSZ -> off <= BSZ -> pos + S sz = length inp ->
    let '(c1, t, ks) := crypt_step unit (fun _ => E) bs L (st lanes ecnt off) (skipn pos inp) in
    t <= S sz /\ t <= length ks /\ ok (c_lanes c1) /\ length (c_ecounter c1) = BSZ /\ c_off c1 <= BSZ /\
    mixed_sem cB (spec (S f) off (S sz) pos) (IMG O lanes ecnt off)
    = mixed_sem cB (spec f (c_off c1) (S sz - t) (pos + t))
        (IMG (spl O pos (bitsB (xor_bytes (firstn t (skipn pos inp)) ks))) (c_lanes c1) (c_ecounter c1) (c_off c1)).
  Proof.
    intros f off sz pos O lanes ecnt Hc He Hoff Hps.
    assert (Hrem : length (skipn pos inp) = S sz) by (rewrite skipn_length; clear - Hps; lia).
    unfold crypt_step. change (L * bs) with (BS bs L). rewrite HBS, Hrem. cbn [gmicro c_off c_ecounter].
    destruct (Nat.leb_spec BSZ off) as [Eoff|Eoff].
    - assert (off = BSZ) by (clear - Eoff Hoff; lia). subst off.
      pose proof (ok_inc lanes Hc) as Hc1. pose proof (E_len lanes Hc) as He1.
      rewrite mixed_sem_cons, Sproc, mixed_sem_app, Sincs by assumption.
      destruct (Nat.leb_spec BSZ (S sz)) as [Esz|Esz]; cbn [refill with_off c_lanes c_ecounter c_off c_key];
        rewrite (xor_chunk _ _ _ _ _ _ _ 0) by (assumption || apply plus_n_O || (clear - Hps Esz; lia)); cbn [skipn]; rewrite He1.
      + repeat split; assumption || apply le_n.
      + (* the last, partial piece: nothing is left for the program of the remaining fuel *)
        rewrite mixed_sem_cons, entry_sem_none, Soff, Nat.sub_diag by assumption. apply Nat.lt_le_incl in Esz.
        repeat split; try (assumption || apply le_n). destruct f; reflexivity.
    - set (temp := Nat.min (BSZ - off) (S sz)). cbn [with_off c_lanes c_ecounter c_off c_key].
      assert (Ht : off + temp <= BSZ /\ temp <= S sz /\ temp <= BSZ - off) by (clear - Eoff; lia). destruct Ht as (Ht1 & Ht2 & Ht3).
      rewrite (xor_chunk _ _ _ _ _ _ _ off), mixed_sem_cons, entry_sem_none, Soff, skipn_length, He
        by (assumption || reflexivity || (clear - Hps Ht2; lia)).
      repeat split; assumption.
  Qed.

  Theorem gmicro_model : forall fuel off size pos O lanes ecnt c' outb,
    ok lanes -> length ecnt = BSZ -> off <= BSZ -> pos + size = length inp -> length O = length inp ->
    loop fuel (st lanes ecnt off) (skipn pos inp) = Some (c', outb) ->
    ok (c_lanes c') /\ length (c_ecounter c') = BSZ /\ length outb = size /\
    mixed_sem cB (spec fuel off size pos) (IMG O lanes ecnt off) = IMG (spl O pos (bitsB outb)) (c_lanes c') (c_ecounter c') (c_off c').
  Proof.
    induction fuel as [|f IH]; intros off size pos O lanes ecnt c' outb Hc He Hoff Hps HO Hl; destruct size as [|sz].
    1, 3: rewrite skipn_all2, crypt_loop_nil in Hl by (clear - Hps; lia); injection Hl as <- <-;
          cbn [gmicro c_lanes c_ecounter c_off map]; rewrite mixed_sem_nil, splice_nil; auto.
    all: assert (Hrem : length (skipn pos inp) = S sz) by (rewrite skipn_length; clear - Hps; lia);
         assert (Hne : skipn pos inp <> []) by (intros Hn; rewrite Hn in Hrem; discriminate).
    - destruct (skipn pos inp); [congruence | discriminate].
    - rewrite crypt_loop_cons in Hl by exact Hne.
      pose proof (gmicro_step f off sz pos O lanes ecnt Hc He Hoff Hps) as Hs.
      destruct (crypt_step _ _ _ _ _ _) as [[[[] lanes1 ecnt1 off1] t] ks]. cbn [c_lanes c_ecounter c_off] in Hs.
      destruct Hs as (Ht & Hks & Hc1 & He1 & Ho1 & ->).
      destruct (loop f _ _) as [[c2 out]|] eqn:Er in Hl; [|discriminate]. injection Hl as <- <-. rewrite <- skipn_add in Er.
      set (X := xor_bytes (firstn t (skipn pos inp)) ks) in *.
      assert (HX : length X = t) by (unfold X; rewrite xor_bytes_length, firstn_length, Hrem; clear - Ht Hks; lia).
      destruct (IH off1 (S sz - t) (pos + t) (spl O pos (bitsB X)) lanes1 ecnt1 c2 out Hc1 He1 Ho1) as (K1 & K2 & KL & K5);
        [clear - Ht Hps; lia | rewrite splice_length; rewrite ?bitsB_length; clear - HX Ht Hps HO; lia | exact Er |].
      rewrite K5, <- HX, splice_bits_app, app_length by (clear - HX Ht Hps HO KL; lia).
      repeat split; try assumption. clear - HX Ht KL. lia.
  Qed.
End GenLoop.

(* the generic CTR function: one lane, the counter block itself as counter area *)
Section Main.
  Variables (bs kn coff fno : nat).
  Let eoff := coff + bs.
  Let ooff := coff + bs + bs.
  Variable cB : nat -> list bool -> list bool.
  Variable E : list byte -> list byte.
  Variables (I CO KS pad : list (list bool)) (inp : list byte).
  Hypothesis HI : I = bitsB inp.
  Hypothesis HKS : length KS = coff.
  Hypothesis HKS8 : bytes8 KS.
  Hypothesis Hpad8 : bytes8 pad.
  Hypothesis Hkn : kn <= coff.
  Hypothesis Hbs : 0 < bs.
  Hypothesis HE : forall blk, length blk = bs -> length (E blk) = bs.
  (* the contract of the procedure call: on (counter block, key-schedule object) it returns E(counter block) *)
  Hypothesis Hcb : forall blk, length blk = bs ->
    cB fno (concat (bitsB blk) ++ concat (firstn kn KS)) = concat (bitsB (E blk)).
  Notation IMG := (img I CO KS pad).
  Notation st cnt ecnt off := {| c_key := tt; c_lanes := [cnt]; c_ecounter := ecnt; c_off := off |}.
  Notation loop := (crypt_loop unit (fun _ => E) bs 1).
  Notation spec := (cmicroB bs kn coff eoff ooff fno).

  Theorem cmicro_model : forall fuel off size pos O cnt ecnt c' outb,
    length cnt = bs -> length ecnt = bs -> off <= bs -> pos + size = length inp -> length O = length inp ->
    loop fuel (st cnt ecnt off) (skipn pos inp) = Some (c', outb) ->
    exists cnt' ecnt', c_lanes c' = [cnt'] /\ c_ecounter c' = ecnt' /\ length cnt' = bs /\ length ecnt' = bs /\
      length outb = size /\
      mixed_sem cB (spec fuel off size pos) (IMG O cnt ecnt off) = IMG (spl O pos (bitsB outb)) cnt' ecnt' (c_off c').
  Proof using HI HKS HKS8 Hpad8 Hkn Hbs HE Hcb. (* the statement names Hbs although the argument does not need it *)
    intros fuel off size pos O cnt ecnt c' outb Hc He Hoff Hps HO Hl. rewrite cmicro_gmicro, HI.
    destruct (gmicro_model bs 1 bs eoff ooff (pstmt bs kn coff eoff fno) [(None, s_inc bool xorb andb false true bs coff)] cB E inp
                (fun lanes => exists c, lanes = [c] /\ length c = bs) (fun O lanes => img (bitsB inp) CO KS pad O (hd [] lanes)) (Nat.mul_1_l bs))
      with (fuel := fuel) (off := off) (size := size) (pos := pos) (O := O) (lanes := [cnt]) (ecnt := ecnt) (c' := c') (outb := outb)
      as ((cnt' & Ec & Hc') & He' & KL & K5); try assumption.
    - intros lanes (c & -> & Hl1). eexists. split; [reflexivity|]. rewrite inc_counter_length. exact Hl1.
    - intros lanes (c & -> & Hl1). cbn [map concat]. rewrite app_nil_r. apply HE, Hl1.
    - intros O' lanes ec o (c & -> & Hl1) Hec. cbn [map concat hd]. rewrite app_nil_r.
      apply (stepv_proc bs coff CO KS pad inp HKS kn fno cB HKS8 Hpad8 Hkn); rewrite ?bitsB_length; try apply bits_len8; auto.
    - intros O' lanes ec o (c & -> & Hl1) Hec. rewrite <- HKS. apply step_inc, Hl1.
    - intros O' lanes ec o p oo n (c & -> & Hl1) Hec Hn.
      apply (stepv_xor bs coff CO KS pad inp HKS); rewrite ?bitsB_length; assumption.
    - intros O' lanes ec o v (c & -> & Hl1) Hec.
      apply (stepv_setoff bs coff CO KS pad inp HKS); rewrite ?bitsB_length; assumption.
    - exists cnt. split; [reflexivity | exact Hc].
    - exists cnt', (c_ecounter c'). rewrite Ec in K5. auto 7.
  Qed.
End Main.

(* a checked CTR encryption function computes ModelCtr.crypt on the image *)
Theorem pctr_model : forall fields code fuel pl sh pl' sh' c t bs kn coff fno off size plen,
  fields_okb fields = true ->
  flat fields fuel pl sh code = Some (pl', sh', c, t) ->
  check_proc [size; size; 16; coff + bs + bs + 4 + plen] c
    (cspec poly pxor pand pzero pone bs kn coff (coff + bs) (coff + bs + bs) fno off size) = true ->
  forall (cB : nat -> list bool -> list bool) (E : list byte -> list byte)
         (out inp cnt ecnt : list byte) (CO KS pad : list (list bool)),
  0 < bs -> kn <= coff -> off <= bs ->
  length out = size -> length inp = size -> length cnt = bs -> length ecnt = bs ->
  length CO = 16 -> bytes8 CO -> length KS = coff -> bytes8 KS -> length pad = plen -> bytes8 pad ->
  (forall blk, length blk = bs -> length (E blk) = bs) ->
  (forall blk, length blk = bs -> cB fno (concat (bitsB blk) ++ concat (firstn kn KS)) = concat (bitsB (E blk))) ->
  let m0 := img (bitsB inp) CO KS pad (bitsB out) cnt ecnt off in
  Inv fields sh m0 ->
  forall c' outb,
  crypt unit (fun _ => E) bs 1 {| c_key := tt; c_lanes := [cnt]; c_ecounter := ecnt; c_off := off |} inp = Some (c', outb) ->
  exists st' cnt' ecnt',
    interp fields cB fuel pl (m0, []) code = Some (pl', st', t) /\
    c_lanes c' = [cnt'] /\ c_ecounter c' = ecnt' /\
    fst st' = img (bitsB inp) CO KS pad (bitsB outb) cnt' ecnt' (c_off c').
Proof.
  intros fields code fuel pl sh pl' sh' c t bs kn coff fno off size plen Hf Hfl Hk cB E out inp cnt ecnt CO KS pad
         Hbs Hkn Hoff Ho Hi Hc He HCO HCO8 HKS HKS8 Hpad Hpad8 HE Hcb m0 HI c' outb Hcr.
  assert (Hm : shaped [size; size; 16; coff + bs + bs + 4 + plen] m0)
    by (apply (ctx_shaped bs coff CO KS pad inp HKS HKS8 Hpad8); rewrite ?bitsB_length; try apply bits_len8; auto).
  destruct (pctr_final fields code fuel pl sh pl' sh' c t _ bs kn coff (coff + bs) (coff + bs + bs) fno off size Hf Hfl Hk cB m0 Hm HI)
    as [Hint Hsem].
  unfold crypt in Hcr.
  destruct (cmicro_model bs kn coff fno cB E (bitsB inp) CO KS pad inp eq_refl HKS HKS8 Hpad8 Hkn Hbs HE Hcb
              (S (length inp)) off size 0 (bitsB out) cnt ecnt c' outb Hc He Hoff) as (cnt' & ecnt' & K1 & K2 & K3 & K4 & KL & K5).
  - symmetry. exact Hi.
  - rewrite bitsB_length. congruence.
  - exact Hcr.
  - exists (execB cB c (m0, [])), cnt', ecnt'. repeat (split; [assumption|]).
    rewrite Hi in K5. rewrite Hsem. unfold m0. rewrite K5. f_equal. apply splice_whole. rewrite !bitsB_length. congruence.
Qed.
Print Assumptions cmicro_model.
Print Assumptions pctr_model.
