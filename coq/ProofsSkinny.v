(* ProofsSkinny.v — the SKINNY specification (S-boxes bijective, decryption inverts encryption) and the
   model of the C library's key-schedule objects: it computes the specification's cipher (C01), every
   key length in range behaves as the zero-padded key (C10), tweakable schedules depend only on the key
   and the latest valid tweak (C04). *)
From Coq Require Import List Bool NArith Arith Lia.
From Skinny Require Import ListFacts Bits XorGroup SpecSkinny ModelCipher.
Import ListNotations.

(* the S-boxes are tables: a sweep over all cells *)
Lemma S8_inv_l : forall x : byte, S8inv bool xorb andb true (S8 bool xorb andb true x) = x.
Proof. intros x. apply byte_eqb_eq. revert x. apply forall_bytes. vm_compute. reflexivity. Qed.
Lemma S8_inv_r : forall x : byte, S8 bool xorb andb true (S8inv bool xorb andb true x) = x.
Proof. intros x. apply byte_eqb_eq. revert x. apply forall_bytes. vm_compute. reflexivity. Qed.
Lemma S4_inv_l : forall x : nib, S4inv bool xorb andb true (S4 bool xorb andb true x) = x.
Proof. intros x. apply nib_eqb_eq. revert x. apply forall_nibs. vm_compute. reflexivity. Qed.
Lemma S4_inv_r : forall x : nib, S4 bool xorb andb true (S4inv bool xorb andb true x) = x.
Proof. intros x. apply nib_eqb_eq. revert x. apply forall_nibs. vm_compute. reflexivity. Qed.

Lemma firstn_app_zeros l : forall n m, n <= m ->
  firstn n (l ++ zeros m) = firstn n l ++ zeros (n - length l).
Proof.
  intros n m H. rewrite firstn_app. f_equal. unfold zeros. apply firstn_repeat. lia.
Qed.
Lemma pad_to_length n l : length (pad_to n l) = n.
Proof.
  unfold pad_to. rewrite firstn_length, app_length. unfold zeros. rewrite repeat_length. lia.
Qed.
Lemma pad_to_id n l : length l = n -> pad_to n l = l.
Proof. apply firstn_app_exact. Qed.
Lemma pad_to_nil n : pad_to n [] = zeros n.
Proof. exact (firstn_repeat byte0 n n (le_n n)). Qed.
Lemma pad_to_firstn n b : pad_to n (firstn n b) = pad_to n b.
Proof.
  unfold pad_to. generalize (zeros n). revert b.
  induction n as [|n IH]; intros [|x b] z; cbn [firstn app]; f_equal; auto.
Qed.
Lemma pad_to_ge n l : length l <= n -> pad_to n l = l ++ zeros (n - length l).
Proof.
  intros H. unfold pad_to. rewrite firstn_app_zeros by lia. f_equal. apply firstn_all2. lia.
Qed.
Lemma pad_to_app_zeros n a k : pad_to n (a ++ zeros k) = pad_to n a.
Proof.
  unfold pad_to. rewrite <- app_assoc. unfold zeros at 1 2. rewrite <- repeat_app.
  fold (zeros (k + n)). rewrite !firstn_app_zeros by lia. reflexivity.
Qed.
Lemma zeros_length n : length (zeros n) = n.
Proof. apply repeat_length. Qed.

Lemma in123_iff z : In z [1; 2; 3] <-> 1 <= z <= 3.
Proof. simpl. lia. Qed.
Lemma in12_iff z : In z [1; 2] <-> 1 <= z <= 2.
Proof. simpl. lia. Qed.

(* n bytes fill z = ceil (n / bs) blocks *)
Lemma ceil_blocks bs' n zmax : let bs := S bs' in
  bs <= n <= zmax * bs ->
  exists z, 1 <= z <= zmax /\ (z - 1) * bs < n <= z * bs /\ (n + bs') / bs = z.
Proof.
  intros bs H. exists ((n + bs') / bs).
  pose proof (Nat.div_mod (n + bs') bs ltac:(discriminate)) as E.
  pose proof (Nat.mod_upper_bound (n + bs') bs ltac:(discriminate)) as U.
  set (q := (n + bs') / bs) in *. set (r := (n + bs') mod bs) in *.
  assert (bs = S bs') by reflexivity.
  split; [|split; [nia|reflexivity]]. nia.
Qed.
Lemma ceil_in123 bs' n : S bs' <= n <= 3 * S bs' -> In ((n + bs') / S bs') [1; 2; 3].
Proof. intros H. destruct (ceil_blocks bs' n 3 H) as (z & Hz & _ & ->). now apply in123_iff. Qed.
Lemma ceil_in12 bs' n : S bs' <= n <= 2 * S bs' -> In ((n + bs') / S bs') [1; 2].
Proof. intros H. destruct (ceil_blocks bs' n 2 H) as (z & Hz & _ & ->). now apply in12_iff. Qed.

(* a tweak-change request as the API sees it: buffer (None = NULL) and size *)
Definition tweak_req : Type := (buf * N)%type.
Definition tweak_valid (bs : nat) (q : tweak_req) : bool :=
  (N.leb 1 (snd q) && N.leb (snd q) (N.of_nat bs))%bool.
Definition tweak_bytes (bs : nat) (q : tweak_req) : list byte :=
  match fst q with Some b => pad_to bs (firstn (N.to_nat (snd q)) b) | None => zeros bs end.
(* the tweak in force after a history of requests (invalid ones are ignored),
   starting from [cur] *)
Definition latest_tweak (bs : nat) (cur : list byte) (qs : list tweak_req) : list byte :=
  fold_left (fun t q => if tweak_valid bs q then tweak_bytes bs q else t) qs cur.

Lemma tweak_bytes_length bs q : length (tweak_bytes bs q) = bs.
Proof. unfold tweak_bytes. destruct (fst q); [apply pad_to_length|apply zeros_length]. Qed.
Lemma size_ok_iff lo hi s : size_ok lo hi s = true <-> (N.of_nat lo <= s <= N.of_nat hi)%N.
Proof. unfold size_ok. now rewrite andb_true_iff, !N.leb_le. Qed.
Lemma size_ok_true lo hi n : lo <= n <= hi -> size_ok lo hi (N.of_nat n) = true.
Proof. intros H. apply size_ok_iff. lia. Qed.
Lemma size_ok_false lo hi s :
  (s < N.of_nat lo)%N \/ (N.of_nat hi < s)%N -> size_ok lo hi s = false.
Proof. intros H. apply not_true_is_false. rewrite size_ok_iff. lia. Qed.
Lemma tweak_valid_size_ok bs q : tweak_valid bs q = size_ok 1 bs (snd q).
Proof. reflexivity. Qed.
Lemma tweak_valid_of_nat bs b n : tweak_valid bs (b, N.of_nat n) = (1 <=? n) && (n <=? bs).
Proof.
  unfold tweak_valid. cbn [snd]. apply eq_true_iff_eq.
  rewrite !andb_true_iff, !N.leb_le, !Nat.leb_le. lia.
Qed.
Lemma tweak_bytes_of_nat bs b n : tweak_bytes bs (Some b, N.of_nat n) = pad_to bs (firstn n b).
Proof. unfold tweak_bytes. cbn [fst snd]. now rewrite Nat2N.id. Qed.

Lemma ks_eta : forall C (k : keysched C), {| ks_rounds := ks_rounds C k; ks_sched := ks_sched C k |} = k.
Proof. intros C [rr ss]. reflexivity. Qed.

(* specification and model over any cell type with an xor-group structure; instantiated at bytes
   (SKINNY-128) and nibbles (SKINNY-64) after the section *)
Section Gen.
  Variable C : Type.
  Variable cx : C -> C -> C.
  Variable cnib : bool -> bool -> bool -> bool -> C.
  Variables sb sbi l2 l3 : C -> C.
  Variable bs : nat.
  Variable load : list byte -> state C.
  Variable store : state C -> list byte.
  Variable czero : C.
  Variable rounds_for : nat -> nat.

  Hypothesis cxA : forall a b c, cx (cx a b) c = cx a (cx b c).
  Hypothesis cxC : forall a b, cx a b = cx b a.
  Hypothesis cxN : forall a, cx a a = czero.
  Hypothesis cx0 : forall a, cx a czero = a.

  Ltac cxs := xor_group cxA cxC cxN cx0.
  (* destruct patterns: a 6-bit round constant; a state into its rows, or a row into its cells *)
  Ltac drc r := destruct r as [[[[[? ?] ?] ?] ?] ?].
  Ltac d4 x := destruct x as [[[? ?] ?] ?].

  Notation rx := (rx C cx).
  Notation zrow := (zrow C czero).
  (* rows form an xor group as the cells do, so the layers that treat a row as a whole are
     handled row by row *)
  Lemma rx_assoc a b c : rx (rx a b) c = rx a (rx b c).
  Proof. d4 a. d4 b. d4 c. cbn. pair_eq; apply cxA. Qed.
  Lemma rx_comm a b : rx a b = rx b a.
  Proof. d4 a. d4 b. cbn. pair_eq; apply cxC. Qed.
  Lemma rx_nilp a : rx a a = zrow.
  Proof. d4 a. cbn. unfold ModelCipher.zrow. pair_eq; apply cxN. Qed.
  Lemma rx_zrow a : rx a zrow = a.
  Proof. d4 a. cbn. pair_eq; apply cx0. Qed.
  Ltac rxs := xor_group rx_assoc rx_comm rx_nilp rx_zrow.

  (* each layer of a round is undone by its inverse; the S-box layer is the only one that
     needs more than the group laws *)
  Section Inverse.
    Hypothesis sbi_sb : forall x, sbi (sb x) = x.
    Hypothesis sb_sbi : forall x, sb (sbi x) = x.

    Lemma mix_columns_inv_mix_columns s : mix_columns_inv C cx (mix_columns C cx s) = s.
    Proof. d4 s. cbn -[SpecSkinny.rx]. pair_eq; try reflexivity; rxs. Qed.
    Lemma mix_columns_mix_columns_inv s : mix_columns C cx (mix_columns_inv C cx s) = s.
    Proof. d4 s. cbn -[SpecSkinny.rx]. pair_eq; try reflexivity; rxs. Qed.
    Lemma shift_rows_inv_shift_rows s : shift_rows_inv C (shift_rows C s) = s.
    Proof. dstate s. reflexivity. Qed.
    Lemma shift_rows_shift_rows_inv s : shift_rows C (shift_rows_inv C s) = s.
    Proof. dstate s. reflexivity. Qed.
    Lemma add_tweak_bit_invol tw s : add_tweak_bit C cx cnib tw (add_tweak_bit C cx cnib tw s) = s.
    Proof. destruct tw; [|reflexivity]. dstate s. cbn. pair_eq; try reflexivity; cxs. Qed.
    Lemma add_round_tweakey_invol k s : add_round_tweakey C cx k (add_round_tweakey C cx k s) = s.
    Proof. d4 s. destruct k. cbn -[SpecSkinny.rx]. pair_eq; try reflexivity; rxs. Qed.
    Lemma add_constants_invol r s : add_constants C cx cnib r (add_constants C cx cnib r s) = s.
    Proof. dstate s. drc r. cbn. pair_eq; try reflexivity; cxs. Qed.
    Lemma sub_cells_inv_sub_cells s : sub_cells_inv C sbi (sub_cells C sb s) = s.
    Proof. dstate s. cbn. pair_eq; apply sbi_sb. Qed.
    Lemma sub_cells_sub_cells_inv s : sub_cells C sb (sub_cells_inv C sbi s) = s.
    Proof. dstate s. cbn. pair_eq; apply sb_sbi. Qed.

    Lemma round_inv_round tw r k s :
      round_inv C cx cnib sbi tw r k (round C cx cnib sb tw r k s) = s.
    Proof.
      unfold round_inv, round.
      now rewrite mix_columns_inv_mix_columns, shift_rows_inv_shift_rows, add_tweak_bit_invol,
        add_round_tweakey_invol, add_constants_invol, sub_cells_inv_sub_cells.
    Qed.
    Lemma round_round_inv tw r k s :
      round C cx cnib sb tw r k (round_inv C cx cnib sbi tw r k s) = s.
    Proof.
      unfold round_inv, round.
      now rewrite sub_cells_sub_cells_inv, add_constants_invol, add_round_tweakey_invol,
        add_tweak_bit_invol, shift_rows_shift_rows_inv, mix_columns_mix_columns_inv.
    Qed.

    Lemma dec_enc_with tw ks s :
      decrypt_with C cx cnib sbi tw ks (encrypt_with C cx cnib sb tw ks s) = s.
    Proof. apply fold_left_rev_inv. intros k s'. apply round_inv_round. Qed.
    Lemma enc_dec_with tw ks s :
      encrypt_with C cx cnib sb tw ks (decrypt_with C cx cnib sbi tw ks s) = s.
    Proof.
      unfold encrypt_with. rewrite <- (rev_involutive ks) at 1.
      apply fold_left_rev_inv. intros k s'. apply round_round_inv.
    Qed.

    (* on byte strings, for [load] and [store] inverse to each other on states and
       on the block at hand *)
    Lemma bytes_dec_enc (LS : forall s, load (store s) = s) tw n t1 t2 t3 blk :
      store (load blk) = blk ->
      store (decrypt C cx cnib sbi l2 l3 tw n t1 t2 t3
               (load (store (encrypt C cx cnib sb l2 l3 tw n t1 t2 t3 (load blk))))) = blk.
    Proof. intros SL. unfold decrypt, encrypt. now rewrite LS, dec_enc_with. Qed.
    Lemma bytes_enc_dec (LS : forall s, load (store s) = s) tw n t1 t2 t3 blk :
      store (load blk) = blk ->
      store (encrypt C cx cnib sb l2 l3 tw n t1 t2 t3
               (load (store (decrypt C cx cnib sbi l2 l3 tw n t1 t2 t3 (load blk))))) = blk.
    Proof. intros SL. unfold decrypt, encrypt. now rewrite LS, enc_dec_with. Qed.

    (* the model's rounds: the schedule word goes into rows 0-1, the constant 2 into row 2 *)
    Lemma add_c2_invol s : add_c2 C cx cnib (add_c2 C cx cnib s) = s.
    Proof. dstate s. cbn. pair_eq; try reflexivity; cxs. Qed.
    Lemma add_round_tweakey_add_c2 e s :
      add_round_tweakey C cx e (add_c2 C cx cnib s) = add_c2 C cx cnib (add_round_tweakey C cx e s).
    Proof. dstate s. reflexivity. Qed.
    Lemma dec_round_enc_round e s : dec_round C cx cnib sbi e (enc_round C cx cnib sb e s) = s.
    Proof.
      unfold dec_round, enc_round.
      now rewrite mix_columns_inv_mix_columns, shift_rows_inv_shift_rows, add_round_tweakey_add_c2,
        add_round_tweakey_invol, add_c2_invol, sub_cells_inv_sub_cells.
    Qed.
    Lemma enc_round_dec_round e s : enc_round C cx cnib sb e (dec_round C cx cnib sbi e s) = s.
    Proof.
      unfold dec_round, enc_round.
      now rewrite sub_cells_sub_cells_inv, add_round_tweakey_add_c2, add_c2_invol,
        add_round_tweakey_invol, shift_rows_shift_rows_inv, mix_columns_mix_columns_inv.
    Qed.
    (* so ECB decryption undoes ECB encryption under ANY schedule, expanded from a key or not *)
    Theorem ecb_roundtrip (LS : forall s, load (store s) = s) (ks : keysched C) blk :
      store (load blk) = blk ->
      ecb_decrypt C cx cnib sbi load store ks (ecb_encrypt C cx cnib sb load store ks blk) = blk
      /\ ecb_encrypt C cx cnib sb load store ks (ecb_decrypt C cx cnib sbi load store ks blk) = blk.
    Proof.
      intros SL. unfold ecb_decrypt, ecb_encrypt. rewrite !LS. split.
      - now rewrite fold_left_rev_inv by (intros; apply dec_round_enc_round).
      - rewrite <- (rev_involutive (used C ks)) at 1.
        now rewrite fold_left_rev_inv by (intros; apply enc_round_dec_round).
    Qed.
  End Inverse.

  Notation half := (half C).
  Notation hxor := (hxor C cx).
  Notation chalf := (const_half C cnib czero).
  Notation zhalf := (zhalf C czero).
  Notation rkeys := (round_keys C cx l2 l3).
  Notation sloop := (sched_loop C).
  Definition zstate : state C := (zrow, zrow, zrow, zrow).
  (* what a schedule slot holds for round constant and round tweakey [k] *)
  Definition slot_of_rk (tw : bool) (k : rc6 * (row C * row C)) : half :=
    hxor (snd k) (chalf tw (fst k)).
  (* the update functions of the passes: overwrite with tweakey and constants, or xor in *)
  Notation upd_set tw := (fun (_ k : half) (r : rc6) => hxor k (chalf tw r)).
  Notation upd_xor := (fun (e k : half) (_ : rc6) => hxor e k).

  (* adding a schedule slot and the constant 2 is the specification's key
     layer, in the order of [round] and in that of [round_inv] *)
  Lemma key_layer tw r k s :
    let s' := add_c2 C cx cnib (add_round_tweakey C cx (slot_of_rk tw (r, k)) s) in
    s' = add_tweak_bit C cx cnib tw (add_round_tweakey C cx k (add_constants C cx cnib r s))
    /\ s' = add_constants C cx cnib r (add_round_tweakey C cx k (add_tweak_bit C cx cnib tw s)).
  Proof.
    dstate s. destruct k as [k0 k1]. d4 k0. d4 k1. drc r.
    destruct tw; cbn; split; pair_eq; try reflexivity; cxs.
  Qed.
  Lemma enc_round_slot tw k s :
    enc_round C cx cnib sb (slot_of_rk tw k) s = round C cx cnib sb tw (fst k) (snd k) s.
  Proof. destruct k as [r k]. unfold enc_round, round. do 2 f_equal. apply key_layer. Qed.
  Lemma dec_round_slot tw k s :
    dec_round C cx cnib sbi (slot_of_rk tw k) s = round_inv C cx cnib sbi tw (fst k) (snd k) s.
  Proof. destruct k as [r k]. unfold dec_round, round_inv. f_equal. apply key_layer. Qed.
  Lemma fold_enc_round_slots tw ks : forall s,
    fold_left (fun s e => enc_round C cx cnib sb e s) (map (slot_of_rk tw) ks) s
    = encrypt_with C cx cnib sb tw ks s.
  Proof. apply fold_left_map_ext. intros s k. apply enc_round_slot. Qed.
  Lemma fold_dec_round_slots tw ks : forall s,
    fold_left (fun s e => dec_round C cx cnib sbi e s) (rev (map (slot_of_rk tw) ks)) s
    = decrypt_with C cx cnib sbi tw ks s.
  Proof.
    unfold decrypt_with. rewrite <- map_rev. apply fold_left_map_ext. intros s k. apply dec_round_slot.
  Qed.

  (* a schedule whose used part is the specification's round tweakeys *)
  Definition sched_ok (tw : bool) (n : nat) (t1 t2 t3 : state C) (len : nat)
             (ks : keysched C) : Prop :=
    ks_rounds C ks = N.of_nat n /\ length (ks_sched C ks) = len
    /\ firstn n (ks_sched C ks) = map (slot_of_rk tw) (rkeys n rc_init t1 t2 t3).

  Lemma crypt_of_sched tw n t1 t2 t3 len (ks : keysched C) :
    sched_ok tw n t1 t2 t3 len ks ->
    forall blk,
      ecb_encrypt C cx cnib sb load store ks blk
      = store (encrypt C cx cnib sb l2 l3 tw n t1 t2 t3 (load blk))
      /\ ecb_decrypt C cx cnib sbi load store ks blk
         = store (decrypt C cx cnib sbi l2 l3 tw n t1 t2 t3 (load blk)).
  Proof.
    intros (Hr & _ & Hs) blk. unfold ecb_encrypt, ecb_decrypt, used. rewrite Hr, Nat2N.id, Hs.
    rewrite fold_enc_round_slots, fold_dec_round_slots. split; reflexivity.
  Qed.

  Lemma sloop_length n upd next : forall tk r s, length (sloop n upd next tk r s) = length s.
  Proof.
    induction n as [|n IH]; intros tk r [|e s]; simpl; auto.
  Qed.

  (* schedule slots form an xor group as well, and [rows01] is a morphism *)
  Lemma hxor_assoc a b c : hxor (hxor a b) c = hxor a (hxor b c).
  Proof. unfold ModelCipher.hxor. cbn [fst snd]. f_equal; apply rx_assoc. Qed.
  Lemma hxor_comm a b : hxor a b = hxor b a.
  Proof. unfold ModelCipher.hxor. cbn [fst snd]. f_equal; apply rx_comm. Qed.
  Lemma hxor_nilp a : hxor a a = zhalf.
  Proof. unfold ModelCipher.hxor, ModelCipher.zhalf. f_equal; apply rx_nilp. Qed.
  Lemma hxor_zhalf a : hxor a zhalf = a.
  Proof. destruct a. unfold ModelCipher.hxor. cbn [fst snd]. f_equal; apply rx_zrow. Qed.
  Lemma rows01_sx a b : rows01 C (sx C cx a b) = hxor (rows01 C a) (rows01 C b).
  Proof. d4 a. d4 b. reflexivity. Qed.
  Ltac hxs := xor_group hxor_assoc hxor_comm hxor_nilp hxor_zhalf.

  (* a zero tweakey stays zero under the LFSRs, so its pass over the schedule changes nothing *)
  Hypothesis l2_0 : l2 czero = czero.
  Hypothesis l3_0 : l3 czero = czero.
  Lemma zstate_next2 : next_tk2 C l2 zstate = zstate.
  Proof. unfold next_tk2, zstate. cbn. now rewrite l2_0. Qed.
  Lemma zstate_next3 : next_tk3 C l3 zstate = zstate.
  Proof. unfold next_tk3, zstate. cbn. now rewrite l3_0. Qed.
  Lemma zero_pass next : next zstate = zstate ->
    forall n r s, sloop n upd_xor next zstate r s = s.
  Proof.
    intros Hn. induction n as [|n IH]; intros r [|e s]; simpl; auto.
    rewrite Hn, IH. f_equal. apply hxor_zhalf.
  Qed.

  Lemma three_pass tw : forall n t1 t2 t3 r s, n <= length s ->
    firstn n (sloop n upd_xor (next_tk3 C l3) t3 r
               (sloop n upd_xor (next_tk2 C l2) t2 r
                  (sloop n (upd_set tw) (next_tk1 C) t1 r s)))
    = map (slot_of_rk tw) (rkeys n r t1 t2 t3).
  Proof.
    induction n as [|n IH]; intros t1 t2 t3 r [|e s] H; simpl in *; auto; try lia.
    f_equal; [|apply IH; lia].
    unfold slot_of_rk. cbn [fst snd]. rewrite !rows01_sx. hxs.
  Qed.
  (* what three, two, one passes leave in an object with enough slots *)
  Lemma three_pass_ok tw n t1 t2 t3 s : n <= length s ->
    sched_ok tw n t1 t2 t3 (length s)
      (mk_ks C n (sloop n upd_xor (next_tk3 C l3) t3 rc_init
                    (sloop n upd_xor (next_tk2 C l2) t2 rc_init
                       (sloop n (upd_set tw) (next_tk1 C) t1 rc_init s)))).
  Proof.
    intros H. unfold sched_ok. cbn [mk_ks ks_rounds ks_sched]. rewrite !sloop_length.
    repeat split. now apply three_pass.
  Qed.
  Lemma two_pass_ok tw n t1 t2 s : n <= length s ->
    sched_ok tw n t1 t2 zstate (length s)
      (mk_ks C n (sloop n upd_xor (next_tk2 C l2) t2 rc_init
                    (sloop n (upd_set tw) (next_tk1 C) t1 rc_init s))).
  Proof.
    intros H. pose proof (three_pass_ok tw n t1 t2 zstate s H) as P.
    now rewrite (zero_pass _ zstate_next3) in P.
  Qed.
  Lemma one_pass_ok tw n t1 s : n <= length s ->
    sched_ok tw n t1 zstate zstate (length s)
      (mk_ks C n (sloop n (upd_set tw) (next_tk1 C) t1 rc_init s)).
  Proof.
    intros H. pose proof (two_pass_ok tw n t1 zstate s H) as P.
    now rewrite (zero_pass _ zstate_next2) in P.
  Qed.

  (* xor the TK1 stream of [ta] out and that of [tb] in *)
  Lemma swap_tk1 tw : forall n ta tb t2 t3 r s, n <= length s ->
    firstn n s = map (slot_of_rk tw) (rkeys n r ta t2 t3) ->
    firstn n (sloop n upd_xor (next_tk1 C) tb r (sloop n upd_xor (next_tk1 C) ta r s))
    = map (slot_of_rk tw) (rkeys n r tb t2 t3).
  Proof.
    induction n as [|n IH]; intros ta tb t2 t3 r [|e s] H Hs; simpl in *; auto; try lia.
    injection Hs as He Hs. f_equal; [|apply IH with (ta := next_tk1 C ta); [lia|exact Hs]].
    subst e. unfold slot_of_rk. cbn [fst snd]. rewrite !rows01_sx. hxs.
  Qed.

  Notation stk1 := (set_tk1 C cx cnib bs load czero).
  Notation stk2 := (set_tk2 C cx l2 bs load).
  Notation stk3 := (set_tk3 C cx l3 bs load).
  Notation xtk1 := (xor_tk1 C cx bs load).
  Notation mks := (mk_ks C).

  Lemma used_mk_ks n s : used C (mks n s) = firstn n s.
  Proof. unfold used. cbn [mk_ks ks_rounds ks_sched]. now rewrite Nat2N.id. Qed.

  Notation skinner := (set_key_inner C cx cnib l2 l3 bs load czero rounds_for).
  Lemma set_key_inner_None1 ks key : length key = bs ->
    skinner ks key None
    = mks (rounds_for 1) (stk1 (rounds_for 1) key false (ks_sched C ks)).
  Proof. intros H. unfold set_key_inner. now rewrite H, Nat.eqb_refl. Qed.
  Lemma set_key_inner_None2 ks key : length key <> bs -> length key <= 2 * bs ->
    skinner ks key None
    = mks (rounds_for 2) (stk2 (rounds_for 2) (skipn bs key)
                            (stk1 (rounds_for 2) (firstn bs key) false (ks_sched C ks))).
  Proof.
    intros H1 H2. unfold set_key_inner. apply Nat.eqb_neq in H1. apply Nat.leb_le in H2.
    now rewrite H1, H2.
  Qed.
  Lemma set_key_inner_None3 ks key : length key <> bs -> 2 * bs < length key ->
    skinner ks key None
    = mks (rounds_for 3) (stk3 (rounds_for 3) (skipn (2 * bs) key)
                            (stk2 (rounds_for 3) (firstn bs (skipn bs key))
                               (stk1 (rounds_for 3) (firstn bs key) false (ks_sched C ks)))).
  Proof.
    intros H1 H2. unfold set_key_inner. apply Nat.eqb_neq in H1. apply Nat.leb_gt in H2.
    now rewrite H1, H2.
  Qed.
  Lemma set_key_inner_Some1 ks key tw : length key = bs ->
    skinner ks key (Some tw)
    = mks (rounds_for 2) (stk2 (rounds_for 2) key (stk1 (rounds_for 2) tw true (ks_sched C ks))).
  Proof. intros H. unfold set_key_inner. now rewrite H, Nat.eqb_refl. Qed.
  Lemma set_key_inner_Some2 ks key tw : length key <> bs ->
    skinner ks key (Some tw)
    = mks (rounds_for 3) (stk3 (rounds_for 3) (skipn bs key)
                            (stk2 (rounds_for 3) (firstn bs key)
                               (stk1 (rounds_for 3) tw true (ks_sched C ks)))).
  Proof. intros H. unfold set_key_inner. apply Nat.eqb_neq in H. now rewrite H. Qed.

  (* tweakey word [i] of a key of [z] blocks: block [i] of the key, zero from block [z] on *)
  Definition tkz (z i : nat) (key : list byte) : state C :=
    if Nat.ltb i z then load (firstn bs (skipn (bs * i) key)) else zstate.

  Hypothesis bs_pos : 0 < bs.
  (* length side conditions on pieces of the key *)
  Ltac len := rewrite ?firstn_length, ?skipn_length, ?pad_to_length; lia.

  Lemma set_key_inner_None_ok z ks key :
    In z [1; 2; 3] -> length key = bs * z -> rounds_for z <= length (ks_sched C ks) ->
    sched_ok false (rounds_for z) (tkz z 0 key) (tkz z 1 key) (tkz z 2 key)
             (length (ks_sched C ks)) (skinner ks key None).
  Proof.
    intros Hz Hl Hn. unfold tkz. rewrite Nat.mul_0_r, Nat.mul_1_r, (Nat.mul_comm bs 2).
    cbn [skipn]. destruct Hz as [<-|[<-|[<-|[]]]]; cbn [Nat.ltb Nat.leb].
    - rewrite set_key_inner_None1, (firstn_all2 key) by lia.
      unfold set_tk1. rewrite pad_to_id by lia. now apply one_pass_ok.
    - rewrite set_key_inner_None2, (firstn_all2 (skipn bs key)) by len.
      unfold set_tk2, set_tk1. rewrite !pad_to_id by len.
      now apply two_pass_ok.
    - rewrite set_key_inner_None3, (firstn_all2 (skipn (2 * bs) key)) by len.
      unfold set_tk3, set_tk2, set_tk1.
      rewrite !pad_to_id by len. now apply three_pass_ok.
  Qed.

  Lemma set_key_inner_Some_ok zk ks key tweak :
    In zk [1; 2] -> length key = bs * zk -> length tweak = bs ->
    rounds_for (S zk) <= length (ks_sched C ks) ->
    sched_ok true (rounds_for (S zk)) (load tweak) (tkz zk 0 key) (tkz zk 1 key)
             (length (ks_sched C ks)) (skinner ks key (Some tweak)).
  Proof.
    intros Hz Hl Ht Hn. unfold tkz. rewrite Nat.mul_0_r, Nat.mul_1_r.
    cbn [skipn]. destruct Hz as [<-|[<-|[]]]; cbn [Nat.ltb Nat.leb].
    - rewrite set_key_inner_Some1, (firstn_all2 key) by lia.
      unfold set_tk2, set_tk1. rewrite !pad_to_id by lia. now apply two_pass_ok.
    - rewrite set_key_inner_Some2, (firstn_all2 (skipn bs key)) by len.
      unfold set_tk3, set_tk2, set_tk1.
      rewrite !pad_to_id by len. now apply three_pass_ok.
  Qed.

  Notation skey := (set_key C cx cnib l2 l3 bs load czero rounds_for).
  Notation stkey := (set_tweaked_key C cx cnib l2 l3 bs load czero rounds_for).
  Notation stweak := (set_tweak C cx bs load).

  Lemma set_key_eq ks key n : bs <= n <= 3 * bs ->
    skey ks (Some key) (N.of_nat n) = (1%N, skinner ks (pad_to n key) None).
  Proof. intros H. unfold set_key. now rewrite size_ok_true, Nat2N.id. Qed.
  Lemma set_tweaked_key_eq t key n : bs <= n <= 2 * bs ->
    stkey t (Some key) (N.of_nat n)
    = (1%N, {| tk_ks := skinner (tk_ks C t) (pad_to n key) (Some (zeros bs));
               tk_tweak := zeros bs |}).
  Proof. intros H. unfold set_tweaked_key. now rewrite size_ok_true, Nat2N.id. Qed.
  Lemma set_tweaked_key_sched_length t key size :
    length (ks_sched C (tk_ks C (snd (stkey t key size)))) = length (ks_sched C (tk_ks C t)).
  Proof.
    unfold set_tweaked_key. destruct key as [k|]; [|reflexivity]. destruct (size_ok _ _ size); [|reflexivity].
    cbn [snd tk_ks]. unfold set_key_inner.
    destruct (Nat.eqb _ bs); cbn [ks_sched mk_ks]; unfold set_tk1, set_tk2, set_tk3; rewrite !sloop_length; reflexivity.
  Qed.
  Lemma set_key_accepts ks key n : bs <= n <= 3 * bs ->
    skey ks (Some key) (N.of_nat n) = (1%N, snd (skey ks (Some key) (N.of_nat n))).
  Proof. intros H. now rewrite set_key_eq. Qed.
  Lemma set_key_exact z n ks key :
    In z [1; 2; 3] -> n = z * bs -> length key = n ->
    skey ks (Some key) (N.of_nat n) = (1%N, skinner ks key None).
  Proof using bs_pos. (* stated under bs_pos, which the argument does not need *)
    intros Hz%in123_iff Hn Hl. now rewrite set_key_eq, pad_to_id by nia. Qed.
  Lemma set_tweaked_key_exact zk n t key :
    In zk [1; 2] -> n = zk * bs -> length key = n ->
    stkey t (Some key) (N.of_nat n)
    = (1%N, {| tk_ks := skinner (tk_ks C t) key (Some (zeros bs)); tk_tweak := zeros bs |}).
  Proof using bs_pos.
    intros Hz%in12_iff Hn Hl. now rewrite set_tweaked_key_eq, pad_to_id by nia.
  Qed.

  Lemma set_key_reject ks key size :
    key = None \/ (size < N.of_nat bs)%N \/ (N.of_nat (3 * bs) < size)%N ->
    skey ks key size = (0%N, ks).
  Proof.
    intros H. unfold set_key. destruct key as [k|]; [|reflexivity].
    rewrite size_ok_false; [reflexivity|]. destruct H as [H|H]; [discriminate|exact H].
  Qed.
  Lemma set_tweaked_key_reject t key size :
    key = None \/ (size < N.of_nat bs)%N \/ (N.of_nat (2 * bs) < size)%N ->
    stkey t key size = (0%N, t).
  Proof.
    intros H. unfold set_tweaked_key. destruct key as [k|]; [|reflexivity].
    rewrite size_ok_false; [reflexivity|]. destruct H as [H|H]; [discriminate|exact H].
  Qed.

  (* a key that does not fill its last block behaves as if zero-padded *)
  Lemma set_key_inner_None_pad z ks key :
    In z [1; 2; 3] -> bs <= length key -> (z - 1) * bs < length key <= z * bs ->
    skinner ks key None = skinner ks (pad_to (z * bs) key) None.
  Proof.
    intros Hz Hb Hl. destruct Hz as [<-|[<-|[<-|[]]]].
    - now rewrite pad_to_id by lia.
    - rewrite !set_key_inner_None2 by len.
      rewrite (pad_to_ge (2 * bs) key), firstn_app_le, skipn_app_le by lia.
      unfold set_tk2. now rewrite pad_to_app_zeros.
    - rewrite !set_key_inner_None3 by len.
      rewrite (pad_to_ge (3 * bs) key), !skipn_app_le, !firstn_app_le by len.
      unfold set_tk3. now rewrite pad_to_app_zeros.
  Qed.
  Lemma set_key_inner_Some_pad z ks key tweak :
    In z [1; 2] -> bs <= length key -> (z - 1) * bs < length key <= z * bs ->
    skinner ks key (Some tweak) = skinner ks (pad_to (z * bs) key) (Some tweak).
  Proof.
    intros Hz Hb Hl. destruct Hz as [<-|[<-|[]]].
    - now rewrite pad_to_id by lia.
    - rewrite !set_key_inner_Some2 by len.
      rewrite (pad_to_ge (2 * bs) key), firstn_app_le, skipn_app_le by lia.
      unfold set_tk3. now rewrite pad_to_app_zeros.
  Qed.
  Lemma ceil_bs n zmax : bs <= n <= zmax * bs ->
    exists z, 1 <= z <= zmax /\ (z - 1) * bs < n <= z * bs /\ bs * ((n + (bs - 1)) / bs) = z * bs.
  Proof.
    intros H. assert (Eb : bs = S (bs - 1)) by lia. rewrite Eb in H.
    destruct (ceil_blocks _ _ _ H) as (z & Hz & Hr & E). rewrite <- Eb in Hr, E.
    exists z. rewrite E. auto using Nat.mul_comm.
  Qed.
  Lemma set_key_pad ks key n : bs <= n <= 3 * bs -> length key = n ->
    let m := bs * ((n + (bs - 1)) / bs) in
    skey ks (Some key) (N.of_nat n) = skey ks (Some (pad_to m key)) (N.of_nat m).
  Proof.
    intros Hn Hl m. subst m. destruct (ceil_bs n 3 Hn) as (z & Hz & Hr & ->).
    rewrite !set_key_eq, (pad_to_id n key Hl), (pad_to_id _ _ (pad_to_length _ _)) by nia.
    f_equal. apply set_key_inner_None_pad; [apply in123_iff| |]; lia.
  Qed.
  Lemma set_tweaked_key_pad t key n : bs <= n <= 2 * bs -> length key = n ->
    let m := bs * ((n + (bs - 1)) / bs) in
    stkey t (Some key) (N.of_nat n) = stkey t (Some (pad_to m key)) (N.of_nat m).
  Proof.
    intros Hn Hl m. subst m. destruct (ceil_bs n 2 Hn) as (z & Hz & Hr & ->).
    rewrite !set_tweaked_key_eq, (pad_to_id n key Hl), (pad_to_id _ _ (pad_to_length _ _)) by nia.
    do 2 f_equal. apply set_key_inner_Some_pad; [apply in12_iff| |]; lia.
  Qed.

  (* what one tweak change does, and the invariant a history of them keeps *)
  Lemma set_tweak_ret t q :
    fst (stweak t (fst q) (snd q)) = if tweak_valid bs q then 1%N else 0%N.
  Proof.
    unfold set_tweak. rewrite <- tweak_valid_size_ok. now destruct (tweak_valid bs q).
  Qed.
  Lemma set_tweak_invalid t b size :
    tweak_valid bs (b, size) = false -> stweak t b size = (0%N, t).
  Proof.
    intros H. rewrite tweak_valid_size_ok in H. cbn [snd] in H. unfold set_tweak. now rewrite H.
  Qed.
  Lemma set_tweak_valid t b size : tweak_valid bs (b, size) = true ->
    let n := N.to_nat (ks_rounds C (tk_ks C t)) in
    stweak t b size
    = (1%N, {| tk_ks := {| ks_rounds := ks_rounds C (tk_ks C t);
                           ks_sched := xtk1 n (tweak_bytes bs (b, size))
                                         (xtk1 n (tk_tweak C t) (ks_sched C (tk_ks C t))) |};
               tk_tweak := tweak_bytes bs (b, size) |}).
  Proof.
    intros H. rewrite tweak_valid_size_ok in H. cbn [snd] in H. unfold set_tweak. now rewrite H.
  Qed.

  Definition tstep (t : tkeysched C) (q : tweak_req) : tkeysched C :=
    snd (stweak t (fst q) (snd q)).
  Definition tinv (n : nat) (t2 t3 : state C) (len : nat) (t : tkeysched C) (tw : list byte)
    : Prop :=
    tk_tweak C t = tw /\ length tw = bs /\ n <= len
    /\ sched_ok true n (load tw) t2 t3 len (tk_ks C t).

  Lemma tstep_inv n t2 t3 len t tw q :
    tinv n t2 t3 len t tw ->
    tinv n t2 t3 len (tstep t q) (if tweak_valid bs q then tweak_bytes bs q else tw).
  Proof.
    intros H. unfold tstep. destruct q as [b size]. cbn [fst snd].
    destruct (tweak_valid bs (b, size)) eqn:E; [|now rewrite set_tweak_invalid].
    rewrite set_tweak_valid by exact E. destruct H as (Ht & Hl & Hn & Hr & Hlen & Hs).
    pose proof (tweak_bytes_length bs (b, size)) as Hq.
    unfold xor_tk1. repeat split; cbn [snd tk_tweak tk_ks ks_rounds ks_sched]; auto.
    - now rewrite !sloop_length.
    - rewrite Hr, Nat2N.id, Ht, !pad_to_id by assumption. apply swap_tk1; [lia|exact Hs].
  Qed.
  Lemma tfold_inv n t2 t3 len : forall qs t tw,
    tinv n t2 t3 len t tw ->
    tinv n t2 t3 len (fold_left tstep qs t) (latest_tweak bs tw qs).
  Proof.
    induction qs as [|q qs IH]; intros t tw H; [exact H|].
    exact (IH _ _ (tstep_inv _ _ _ _ _ _ q H)).
  Qed.

  (* C01 and C04 over the abstract cell type; [len] is the number of slots of
     the C object, which the round count fits *)
  Theorem set_key_spec_gen len z (Hlen : rounds_for z <= len) ks key :
    In z [1; 2; 3] -> length key = bs * z -> length (ks_sched C ks) = len ->
    exists ks', skey ks (Some key) (N.of_nat (bs * z)) = (1%N, ks')
      /\ ks_rounds C ks' = N.of_nat (rounds_for z)
      /\ length (ks_sched C ks') = len
      /\ (forall blk,
            ecb_encrypt C cx cnib sb load store ks' blk
            = store (encrypt C cx cnib sb l2 l3 false (rounds_for z)
                       (tkz z 0 key) (tkz z 1 key) (tkz z 2 key) (load blk))
            /\ ecb_decrypt C cx cnib sbi load store ks' blk
               = store (decrypt C cx cnib sbi l2 l3 false (rounds_for z)
                          (tkz z 0 key) (tkz z 1 key) (tkz z 2 key) (load blk))).
  Proof.
    intros Hz Hl Hs. exists (skinner ks key None).
    assert (I : sched_ok false (rounds_for z) (tkz z 0 key) (tkz z 1 key) (tkz z 2 key) len
                         (skinner ks key None))
      by (rewrite <- Hs; apply set_key_inner_None_ok; rewrite ?Hs; auto).
    split; [apply (set_key_exact z); auto; lia|].
    split; [apply I|]. split; [apply I|].
    exact (crypt_of_sched _ _ _ _ _ _ _ I).
  Qed.

  Theorem c04_gen len zk (Hlen : rounds_for (S zk) <= len) t0 key qs :
    In zk [1; 2] -> length key = bs * zk -> length (ks_sched C (tk_ks C t0)) = len ->
    let t1 := snd (stkey t0 (Some key) (N.of_nat (bs * zk))) in
    let t2 := fold_left (fun t q => snd (stweak t (fst q) (snd q))) qs t1 in
    fst (stkey t0 (Some key) (N.of_nat (bs * zk))) = 1%N
    /\ tk_tweak C t2 = latest_tweak bs (zeros bs) qs
    /\ ks_rounds C (tk_ks C t2) = N.of_nat (rounds_for (S zk))
    /\ (forall blk,
          ecb_encrypt C cx cnib sb load store (tk_ks C t2) blk
          = store (encrypt C cx cnib sb l2 l3 true (rounds_for (S zk))
                     (load (latest_tweak bs (zeros bs) qs)) (tkz zk 0 key) (tkz zk 1 key)
                     (load blk))
          /\ ecb_decrypt C cx cnib sbi load store (tk_ks C t2) blk
             = store (decrypt C cx cnib sbi l2 l3 true (rounds_for (S zk))
                        (load (latest_tweak bs (zeros bs) qs)) (tkz zk 0 key) (tkz zk 1 key)
                        (load blk)))
    /\ (forall q,
          fst (stweak t2 (fst q) (snd q)) = if tweak_valid bs q then 1%N else 0%N).
  Proof.
    intros Hz Hl Hs t1 t2.
    pose proof (set_tweaked_key_exact zk _ t0 key Hz (Nat.mul_comm bs zk) Hl) as E.
    assert (I : tinv (rounds_for (S zk)) (tkz zk 0 key) (tkz zk 1 key) len t2
                     (latest_tweak bs (zeros bs) qs)).
    { subst t2 t1. rewrite E, <- Hs. apply (tfold_inv _ _ _ _ qs).
      split; [reflexivity|]. split; [apply zeros_length|]. split; [lia|].
      apply set_key_inner_Some_ok; rewrite ?Hs, ?zeros_length; auto. }
    destruct I as (It & _ & _ & Is).
    split; [now rewrite E|]. split; [exact It|]. split; [apply Is|].
    split; [|intros q; apply set_tweak_ret].
    exact (crypt_of_sched _ _ _ _ _ _ _ Is).
  Qed.
End Gen.

(* SKINNY-128 (byte cells) and SKINNY-64 (nibble cells).  The instances pass the hypotheses of Section Gen
   in the order of their declaration: the four group laws, then, where used, [sbi_sb], [sb_sbi], [l2_0] and
   [l3_0] (both by [eq_refl]: the LFSRs fix the zero cell by computation), [bs_pos]. *)
Notation l2_8 := (lfsr2_8 bool xorb).
Notation l3_8 := (lfsr3_8 bool xorb).
Notation l2_4 := (lfsr2_4 bool xorb).
Notation l3_4 := (lfsr3_4 bool xorb).

Lemma load_store128 s : load128 (store128 s) = s.
Proof. dstate s. reflexivity. Qed.
Lemma store_load128 blk : length blk = 16 -> store128 (load128 blk) = blk.
Proof.
  intros H. do 16 (destruct blk as [|? blk]; [discriminate|]).
  destruct blk; [reflexivity|discriminate].
Qed.
Lemma load_store64 s : load64 (store64 s) = s.
Proof.
  dstate s. unfold load64, store64, state64_of_bytes, bytes_of_state64, row_bytes64. cbn [app nth].
  pair_eq; first [apply c8hi_join | apply c8lo_join].
Qed.
Lemma store_load64 blk : length blk = 8 -> store64 (load64 blk) = blk.
Proof.
  intros H. do 8 (destruct blk as [|? blk]; [discriminate|]).
  destruct blk; [|discriminate].
  unfold load64, store64, state64_of_bytes, bytes_of_state64, row_bytes64. cbn [app nth].
  now rewrite !c8join_hi_lo.
Qed.

Lemma tk128_tkz z i key : tk128 z i key = tkz byte 16 load128 byte0 z i key.
Proof. reflexivity. Qed.
Lemma tk64_tkz z i key : tk64 z i key = tkz nib 8 load64 nib0 z i key.
Proof. reflexivity. Qed.

Definition dec_enc128 :=
  bytes_dec_enc byte bxor8 cnib8 S8b S8ib l2_8 l3_8 load128 store128 byte0
    bxor8_assoc bxor8_comm bxor8_nilp bxor8_0_r S8_inv_l load_store128.
Definition enc_dec128 :=
  bytes_enc_dec byte bxor8 cnib8 S8b S8ib l2_8 l3_8 load128 store128 byte0
    bxor8_assoc bxor8_comm bxor8_nilp bxor8_0_r S8_inv_r load_store128.
Definition dec_enc64 :=
  bytes_dec_enc nib bxor4 cnib4 S4b S4ib l2_4 l3_4 load64 store64 nib0
    bxor4_assoc bxor4_comm bxor4_nilp bxor4_0_r S4_inv_l load_store64.
Definition enc_dec64 :=
  bytes_enc_dec nib bxor4 cnib4 S4b S4ib l2_4 l3_4 load64 store64 nib0
    bxor4_assoc bxor4_comm bxor4_nilp bxor4_0_r S4_inv_r load_store64.

(* the specification's decryption inverts its encryption *)
Theorem skinny128_dec_enc : forall z key blk, length blk = 16 ->
  skinny128_dec z key (skinny128_enc z key blk) = blk.
Proof. intros z key blk H. now apply dec_enc128, store_load128. Qed.
Theorem skinny128_enc_dec : forall z key blk, length blk = 16 ->
  skinny128_enc z key (skinny128_dec z key blk) = blk.
Proof. intros z key blk H. now apply enc_dec128, store_load128. Qed.
Theorem skinny64_dec_enc : forall z key blk, length blk = 8 ->
  skinny64_dec z key (skinny64_enc z key blk) = blk.
Proof. intros z key blk H. now apply dec_enc64, store_load64. Qed.
Theorem skinny64_enc_dec : forall z key blk, length blk = 8 ->
  skinny64_enc z key (skinny64_dec z key blk) = blk.
Proof. intros z key blk H. now apply enc_dec64, store_load64. Qed.
Theorem skinny128_tweaked_dec_enc : forall zk key tw blk, length blk = 16 ->
  skinny128_tweaked_dec zk key tw (skinny128_tweaked_enc zk key tw blk) = blk.
Proof. intros zk key tw blk H. now apply dec_enc128, store_load128. Qed.
Theorem skinny128_tweaked_enc_dec : forall zk key tw blk, length blk = 16 ->
  skinny128_tweaked_enc zk key tw (skinny128_tweaked_dec zk key tw blk) = blk.
Proof. intros zk key tw blk H. now apply enc_dec128, store_load128. Qed.
Theorem skinny64_tweaked_dec_enc : forall zk key tw blk, length blk = 8 ->
  skinny64_tweaked_dec zk key tw (skinny64_tweaked_enc zk key tw blk) = blk.
Proof. intros zk key tw blk H. now apply dec_enc64, store_load64. Qed.
Theorem skinny64_tweaked_enc_dec : forall zk key tw blk, length blk = 8 ->
  skinny64_tweaked_enc zk key tw (skinny64_tweaked_dec zk key tw blk) = blk.
Proof. intros zk key tw blk H. now apply enc_dec64, store_load64. Qed.

(* the C objects have room for the largest round count *)
Lemma m128_rounds_le z : m128_rounds z <= 56.
Proof. destruct z as [|[|[|z]]]; apply Nat.leb_le; reflexivity. Qed.
Lemma m64_rounds_le z : m64_rounds z <= 40.
Proof. destruct z as [|[|[|z]]]; apply Nat.leb_le; reflexivity. Qed.
Lemma m128_rounds_pos : forall z, 0 < m128_rounds z.
Proof. intros [|[|[|z]]]; apply Nat.lt_0_succ. Qed.
Lemma m64_rounds_pos : forall z, 0 < m64_rounds z.
Proof. intros [|[|[|z]]]; apply Nat.lt_0_succ. Qed.

(* C01: the model computes the specification's cipher, primary key sizes *)
Theorem m128_set_key_spec : forall (z : nat) (ks : ks128) (key : list byte),
  In z [1; 2; 3] -> length key = 16 * z -> length (ks_sched byte ks) = 56 ->
  exists ks', m128_set_key ks (Some key) (N.of_nat (16 * z)) = (1%N, ks')
    /\ ks_rounds byte ks' = N.of_nat (skinny128_rounds z)
    /\ length (ks_sched byte ks') = 56
    /\ (forall blk, length blk = 16 ->
          m128_encrypt ks' blk = skinny128_enc z key blk
          /\ m128_decrypt ks' blk = skinny128_dec z key blk).
Proof.
  intros z ks key Hz Hl Hs.
  destruct (set_key_spec_gen byte bxor8 cnib8 S8b S8ib l2_8 l3_8 16 load128 store128 byte0
              m128_rounds bxor8_assoc bxor8_comm bxor8_nilp bxor8_0_r eq_refl eq_refl
              (Nat.lt_0_succ _) 56 z (m128_rounds_le z) ks key Hz Hl Hs) as (ks' & H1 & H2 & H3 & H4).
  exists ks'. repeat split; try assumption; apply H4.
Qed.
Theorem m64_set_key_spec : forall (z : nat) (ks : ks64) (key : list byte),
  In z [1; 2; 3] -> length key = 8 * z -> length (ks_sched nib ks) = 40 ->
  exists ks', m64_set_key ks (Some key) (N.of_nat (8 * z)) = (1%N, ks')
    /\ ks_rounds nib ks' = N.of_nat (skinny64_rounds z)
    /\ length (ks_sched nib ks') = 40
    /\ (forall blk, length blk = 8 ->
          m64_encrypt ks' blk = skinny64_enc z key blk
          /\ m64_decrypt ks' blk = skinny64_dec z key blk).
Proof.
  intros z ks key Hz Hl Hs.
  destruct (set_key_spec_gen nib bxor4 cnib4 S4b S4ib l2_4 l3_4 8 load64 store64 nib0
              m64_rounds bxor4_assoc bxor4_comm bxor4_nilp bxor4_0_r eq_refl eq_refl
              (Nat.lt_0_succ _) 40 z (m64_rounds_le z) ks key Hz Hl Hs) as (ks' & H1 & H2 & H3 & H4).
  exists ks'. repeat split; try assumption; apply H4.
Qed.

(* C10: every key length in range behaves as the zero-padded key; sizes out of range are refused *)
Theorem m128_set_key_padding : forall (ks : ks128) (key : list byte) (n : nat),
  16 <= n <= 48 -> length key = n ->
  m128_set_key ks (Some key) (N.of_nat n)
  = m128_set_key ks (Some (pad_to (16 * ((n + 15) / 16)) key)) (N.of_nat (16 * ((n + 15) / 16))).
Proof. exact (set_key_pad byte bxor8 cnib8 l2_8 l3_8 16 load128 byte0 m128_rounds (Nat.lt_0_succ _)). Qed.
Theorem m128_set_key_reject : forall (ks : ks128) (key : buf) (size : N),
  (key = None \/ (size < 16)%N \/ (48 < size)%N) -> m128_set_key ks key size = (0%N, ks).
Proof. exact (set_key_reject byte bxor8 cnib8 l2_8 l3_8 16 load128 byte0 m128_rounds). Qed.
Theorem m128_set_tweaked_key_padding : forall (t : tks128) key n, 16 <= n <= 32 -> length key = n ->
  m128_set_tweaked_key t (Some key) (N.of_nat n)
  = m128_set_tweaked_key t (Some (pad_to (16 * ((n + 15) / 16)) key))
                         (N.of_nat (16 * ((n + 15) / 16))).
Proof. exact (set_tweaked_key_pad byte bxor8 cnib8 l2_8 l3_8 16 load128 byte0 m128_rounds (Nat.lt_0_succ _)). Qed.
Theorem m128_set_tweaked_key_reject : forall (t : tks128) key size,
  (key = None \/ (size < 16)%N \/ (32 < size)%N) -> m128_set_tweaked_key t key size = (0%N, t).
Proof. exact (set_tweaked_key_reject byte bxor8 cnib8 l2_8 l3_8 16 load128 byte0 m128_rounds). Qed.

Theorem m64_set_key_padding : forall (ks : ks64) (key : list byte) (n : nat),
  8 <= n <= 24 -> length key = n ->
  m64_set_key ks (Some key) (N.of_nat n)
  = m64_set_key ks (Some (pad_to (8 * ((n + 7) / 8)) key)) (N.of_nat (8 * ((n + 7) / 8))).
Proof. exact (set_key_pad nib bxor4 cnib4 l2_4 l3_4 8 load64 nib0 m64_rounds (Nat.lt_0_succ _)). Qed.
Theorem m64_set_key_reject : forall (ks : ks64) (key : buf) (size : N),
  (key = None \/ (size < 8)%N \/ (24 < size)%N) -> m64_set_key ks key size = (0%N, ks).
Proof. exact (set_key_reject nib bxor4 cnib4 l2_4 l3_4 8 load64 nib0 m64_rounds). Qed.
Theorem m64_set_tweaked_key_padding : forall (t : tks64) key n, 8 <= n <= 16 -> length key = n ->
  m64_set_tweaked_key t (Some key) (N.of_nat n)
  = m64_set_tweaked_key t (Some (pad_to (8 * ((n + 7) / 8)) key))
                        (N.of_nat (8 * ((n + 7) / 8))).
Proof. exact (set_tweaked_key_pad nib bxor4 cnib4 l2_4 l3_4 8 load64 nib0 m64_rounds (Nat.lt_0_succ _)). Qed.
Theorem m64_set_tweaked_key_reject : forall (t : tks64) key size,
  (key = None \/ (size < 8)%N \/ (16 < size)%N) -> m64_set_tweaked_key t key size = (0%N, t).
Proof. exact (set_tweaked_key_reject nib bxor4 cnib4 l2_4 l3_4 8 load64 nib0 m64_rounds). Qed.

(* C04: tweakable schedules depend only on the key and the latest valid tweak *)
Theorem c04_tweak_history128 : forall (zk : nat) (t0 : tks128) (key : list byte) (qs : list tweak_req),
  In zk [1; 2] -> length key = 16 * zk -> length (ks_sched byte (tk_ks byte t0)) = 56 ->
  let t1 := snd (m128_set_tweaked_key t0 (Some key) (N.of_nat (16 * zk))) in
  let t2 := fold_left (fun t q => snd (m128_set_tweak t (fst q) (snd q))) qs t1 in
  fst (m128_set_tweaked_key t0 (Some key) (N.of_nat (16 * zk))) = 1%N
  /\ tk_tweak byte t2 = latest_tweak 16 (zeros 16) qs
  /\ ks_rounds byte (tk_ks byte t2) = N.of_nat (skinny128_rounds (S zk))
  /\ (forall blk, length blk = 16 ->
        m128_encrypt (tk_ks byte t2) blk
        = skinny128_tweaked_enc zk key (latest_tweak 16 (zeros 16) qs) blk
     /\ m128_decrypt (tk_ks byte t2) blk
        = skinny128_tweaked_dec zk key (latest_tweak 16 (zeros 16) qs) blk)
  /\ (forall q, In q qs ->
        fst (m128_set_tweak t2 (fst q) (snd q)) = if tweak_valid 16 q then 1%N else 0%N).
Proof.
  intros zk t0 key qs Hz Hl Hs.
  destruct (c04_gen byte bxor8 cnib8 S8b S8ib l2_8 l3_8 16 load128 store128 byte0
              m128_rounds bxor8_assoc bxor8_comm bxor8_nilp bxor8_0_r eq_refl
              (Nat.lt_0_succ _) 56 zk (m128_rounds_le (S zk)) t0 key qs Hz Hl Hs) as (H1 & H2 & H3 & H4 & H5).
  repeat split; try assumption; intros; first [apply H4 | apply H5].
Qed.
Theorem c04_tweak_history64 : forall (zk : nat) (t0 : tks64) (key : list byte) (qs : list tweak_req),
  In zk [1; 2] -> length key = 8 * zk -> length (ks_sched nib (tk_ks nib t0)) = 40 ->
  let t1 := snd (m64_set_tweaked_key t0 (Some key) (N.of_nat (8 * zk))) in
  let t2 := fold_left (fun t q => snd (m64_set_tweak t (fst q) (snd q))) qs t1 in
  fst (m64_set_tweaked_key t0 (Some key) (N.of_nat (8 * zk))) = 1%N
  /\ tk_tweak nib t2 = latest_tweak 8 (zeros 8) qs
  /\ ks_rounds nib (tk_ks nib t2) = N.of_nat (skinny64_rounds (S zk))
  /\ (forall blk, length blk = 8 ->
        m64_encrypt (tk_ks nib t2) blk
        = skinny64_tweaked_enc zk key (latest_tweak 8 (zeros 8) qs) blk
     /\ m64_decrypt (tk_ks nib t2) blk
        = skinny64_tweaked_dec zk key (latest_tweak 8 (zeros 8) qs) blk)
  /\ (forall q, In q qs ->
        fst (m64_set_tweak t2 (fst q) (snd q)) = if tweak_valid 8 q then 1%N else 0%N).
Proof.
  intros zk t0 key qs Hz Hl Hs.
  destruct (c04_gen nib bxor4 cnib4 S4b S4ib l2_4 l3_4 8 load64 store64 nib0
              m64_rounds bxor4_assoc bxor4_comm bxor4_nilp bxor4_0_r eq_refl
              (Nat.lt_0_succ _) 40 zk (m64_rounds_le (S zk)) t0 key qs Hz Hl Hs) as (H1 & H2 & H3 & H4 & H5).
  repeat split; try assumption; intros; first [apply H4 | apply H5].
Qed.
Theorem m128_set_tweak_reject : forall (t : tks128) tw size,
  tweak_valid 16 (tw, size) = false -> m128_set_tweak t tw size = (0%N, t).
Proof. intros t tw size H. exact (set_tweak_invalid byte bxor8 16 load128 t tw size H). Qed.
Theorem m64_set_tweak_reject : forall (t : tks64) tw size,
  tweak_valid 8 (tw, size) = false -> m64_set_tweak t tw size = (0%N, t).
Proof. intros t tw size H. exact (set_tweak_invalid nib bxor4 8 load64 t tw size H). Qed.

Print Assumptions S8_inv_l.
Print Assumptions S8_inv_r.
Print Assumptions S4_inv_l.
Print Assumptions S4_inv_r.
Print Assumptions skinny128_dec_enc.
Print Assumptions skinny128_enc_dec.
Print Assumptions skinny64_dec_enc.
Print Assumptions skinny64_enc_dec.
Print Assumptions skinny128_tweaked_dec_enc.
Print Assumptions skinny128_tweaked_enc_dec.
Print Assumptions skinny64_tweaked_dec_enc.
Print Assumptions skinny64_tweaked_enc_dec.
Print Assumptions m128_set_key_spec.
Print Assumptions m64_set_key_spec.
Print Assumptions m128_set_key_padding.
Print Assumptions m128_set_key_reject.
Print Assumptions m128_set_tweaked_key_padding.
Print Assumptions m128_set_tweaked_key_reject.
Print Assumptions m64_set_key_padding.
Print Assumptions m64_set_key_reject.
Print Assumptions m64_set_tweaked_key_padding.
Print Assumptions m64_set_tweaked_key_reject.
Print Assumptions c04_tweak_history128.
Print Assumptions c04_tweak_history64.
Print Assumptions m128_set_tweak_reject.
Print Assumptions m64_set_tweak_reject.
