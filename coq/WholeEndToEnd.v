(* WholeEndToEnd.v — the key-schedule function and the block function, both as the checks regenerate them from the C source
   on every run, chained, for SKINNY-128 and SKINNY-64.  skinny*_set_key's whole-function specification (w_set_key*, tied to
   the C code by the parts key*_sk_<size>) run on ANY prior schedule object, followed by skinny*_ecb_encrypt's / _decrypt's
   own translated code (tied by the blk* parts) run on the resulting object, yields the SPECIFICATION's cipher
   (SpecSkinny.skinny*_enc / _dec, the transcription of ePrint 2016/660) under that key — for every key of a primary size,
   every block, every prior content of every buffer. *)
From Coq Require Import List NArith Lia.
From Skinny Require Import Bits SpecSkinny IR SIR Anf KernelSpecs SIRCheck WholeSpecs ModelCipher ProofsSkinny
                           WholeBridge WholeKey WholeCompose.
Import ListNotations.

(* the object skinny128_set_key leaves: the round count, the rest of the old header, the schedule of the specification's cipher *)
Lemma set_key_obj128 : forall z (key hdr : list byte) (sched : list (half byte)) (rest : mem bool),
  In z [1; 2; 3] -> length key = 16 * z -> length hdr = 8 -> length sched = 56 ->
  exists tail ss, 4 + length tail = 8 /\ length ss = 56
    /\ nth 0 (w_set_key128 bool xorb false true (length key)
                ((bitsB hdr ++ concat (map (KernelSpecs2.half_bytes128 bool) sched)) :: bitsB key :: rest)) []
       = imageR _ (KernelSpecs2.half_bytes128 bool) (skinny128_rounds z) tail ss
    /\ forall blk, length blk = 16 ->
         m128_encrypt {| ks_rounds := N.of_nat (skinny128_rounds z); ks_sched := ss |} blk = skinny128_enc z key blk
         /\ m128_decrypt {| ks_rounds := N.of_nat (skinny128_rounds z); ks_sched := ss |} blk = skinny128_dec z key blk.
Proof.
  intros z key hdr sched rest Hz Hk Hh Hs.
  assert (Hk' : 16 <= length key <= 48) by (rewrite Hk; pose proof (proj1 (in123_iff z) Hz); lia).
  destruct (w_set_key128_model key hdr sched [] 0%N rest Hk' Hh Hs) as [_ HW]. cbv zeta in HW.
  rewrite !app_nil_r in HW. rewrite HW. cbn [nth]. clear HW.
  destruct (m128_set_key_spec z {| ks_rounds := 0%N; ks_sched := sched |} key Hz Hk Hs) as ([rr ss] & Hset & Hrounds & Hlen & Hspec).
  cbn [ks_rounds ks_sched] in *. subst rr.
  rewrite Hk, Hset. cbn [snd ks_rounds ks_sched]. rewrite Nat2N.id, skipn_map.
  exists (skipn 4 hdr), ss. split; [rewrite skipn_length, Hh; reflexivity|]. split; [exact Hlen|]. split; [reflexivity | exact Hspec].
Qed.

Theorem c_set_key_then_encrypt128_spec :
  forall (z : nat) code fuel pl' sh' c t,                                (* skinny128_ecb_encrypt at the round count of z *)
  In z [1; 2; 3] ->
  flat [ksf] fuel [0; 0; 0]%N [(ksf, N.of_nat (skinny128_rounds z))] code = Some (pl', sh', c, t) ->
  check_block_w callP sizes128 2 8 c (enc_offs 8 8 (skinny128_rounds z))
    (enc_stepsW poly (k128_subcells poly pxor pand pzero pone) (k128_enc_linear poly pxor pzero pone) (skinny128_rounds z))
    (enc_stepsW bool (k128_subcells bool xorb andb false true) (k128_enc_linear bool xorb false true) (skinny128_rounds z)) = true ->
  forall (key hdr out blk st : list byte) (sched : list (half byte)) (rest : mem bool),
  length key = 16 * z -> length hdr = 8 -> length sched = 56 -> length out = 16 -> length blk = 16 -> length st = 16 ->
  (* the key-schedule object after skinny128_set_key(ks, key, 16 z), whatever it held before *)
  let ksobj := nth 0 (w_set_key128 bool xorb false true (length key)
                        ((bitsB hdr ++ concat (map (KernelSpecs2.half_bytes128 bool) sched)) :: bitsB key :: rest)) [] in
  exists st', interp [ksf] callB fuel [0; 0; 0]%N (([bitsB out; bitsB blk; ksobj; bitsB st] : mem bool), []) code = Some (pl', st', t)
    /\ nth 0 (fst st') [] = bitsB (skinny128_enc z key blk)
    /\ nth 1 (fst st') [] = bitsB blk /\ nth 2 (fst st') [] = ksobj.
Proof.
  intros z code fuel pl' sh' c t Hz Hflat Hcheck key hdr out blk st sched rest Hk Hh Hs Ho Hb Hst. cbv zeta.
  destruct (set_key_obj128 z key hdr sched rest Hz Hk Hh Hs) as (tail & ss & Ht & Hlen & Hobj & Hspec).
  exact (block_on_imageR 16 8 56 _ _ code fuel _ pl' t (fun s => m128_encrypt {| ks_rounds := _; ks_sched := s |})
           (rounds_lt_2_32 _ 56 (m128_rounds_le z) eq_refl)
           (enc128_final code fuel _ pl' sh' c t (m128_rounds_pos z) (m128_rounds_le z) Hflat Hcheck)
           out blk st tail ss _ _ Ho Hb Hst Ht Hlen Hobj (proj1 (Hspec blk Hb))).
Qed.

Theorem c_set_key_then_decrypt128_spec :
  forall (z : nat) code fuel pl' sh' c t,                                (* skinny128_ecb_decrypt at the round count of z *)
  In z [1; 2; 3] ->
  flat [ksf] fuel [0; 0; 0]%N [(ksf, N.of_nat (skinny128_rounds z))] code = Some (pl', sh', c, t) ->
  check_block_w callP sizes128 2 8 c (dec_offs 8 8 (skinny128_rounds z))
    (dec_stepsW poly (k128_subcells_inv poly pxor pand pzero pone) (k128_dec_linear poly pxor pzero pone) (skinny128_rounds z))
    (dec_stepsW bool (k128_subcells_inv bool xorb andb false true) (k128_dec_linear bool xorb false true) (skinny128_rounds z)) = true ->
  forall (key hdr out blk st : list byte) (sched : list (half byte)) (rest : mem bool),
  length key = 16 * z -> length hdr = 8 -> length sched = 56 -> length out = 16 -> length blk = 16 -> length st = 16 ->
  (* the key-schedule object after skinny128_set_key(ks, key, 16 z), whatever it held before *)
  let ksobj := nth 0 (w_set_key128 bool xorb false true (length key)
                        ((bitsB hdr ++ concat (map (KernelSpecs2.half_bytes128 bool) sched)) :: bitsB key :: rest)) [] in
  exists st', interp [ksf] callB fuel [0; 0; 0]%N (([bitsB out; bitsB blk; ksobj; bitsB st] : mem bool), []) code = Some (pl', st', t)
    /\ nth 0 (fst st') [] = bitsB (skinny128_dec z key blk)
    /\ nth 1 (fst st') [] = bitsB blk /\ nth 2 (fst st') [] = ksobj.
Proof.
  intros z code fuel pl' sh' c t Hz Hflat Hcheck key hdr out blk st sched rest Hk Hh Hs Ho Hb Hst. cbv zeta.
  destruct (set_key_obj128 z key hdr sched rest Hz Hk Hh Hs) as (tail & ss & Ht & Hlen & Hobj & Hspec).
  exact (block_on_imageR 16 8 56 _ _ code fuel _ pl' t (fun s => m128_decrypt {| ks_rounds := _; ks_sched := s |})
           (rounds_lt_2_32 _ 56 (m128_rounds_le z) eq_refl)
           (dec128_final code fuel _ pl' sh' c t (m128_rounds_pos z) (m128_rounds_le z) Hflat Hcheck)
           out blk st tail ss _ _ Ho Hb Hst Ht Hlen Hobj (proj2 (Hspec blk Hb))).
Qed.

(* the object skinny64_set_key leaves: the round count, the rest of the old header, the schedule of the specification's cipher *)
Lemma set_key_obj64 : forall z (key hdr : list byte) (sched : list (half nib)) (rest : mem bool),
  In z [1; 2; 3] -> length key = 8 * z -> length hdr = 4 -> length sched = 40 ->
  exists tail ss, 4 + length tail = 4 /\ length ss = 40
    /\ nth 0 (w_set_key64 bool xorb false true (length key)
                ((bitsB hdr ++ concat (map (KernelSpecs2.half_bytes64 bool) sched)) :: bitsB key :: rest)) []
       = imageR _ (KernelSpecs2.half_bytes64 bool) (skinny64_rounds z) tail ss
    /\ forall blk, length blk = 8 ->
         m64_encrypt {| ks_rounds := N.of_nat (skinny64_rounds z); ks_sched := ss |} blk = skinny64_enc z key blk
         /\ m64_decrypt {| ks_rounds := N.of_nat (skinny64_rounds z); ks_sched := ss |} blk = skinny64_dec z key blk.
Proof.
  intros z key hdr sched rest Hz Hk Hh Hs.
  assert (Hk' : 8 <= length key <= 24) by (rewrite Hk; pose proof (proj1 (in123_iff z) Hz); lia).
  destruct (w_set_key64_model key hdr sched [] 0%N rest Hk' Hh Hs) as [_ HW]. cbv zeta in HW.
  rewrite !app_nil_r in HW. rewrite HW. cbn [nth]. clear HW.
  destruct (m64_set_key_spec z {| ks_rounds := 0%N; ks_sched := sched |} key Hz Hk Hs) as ([rr ss] & Hset & Hrounds & Hlen & Hspec).
  cbn [ks_rounds ks_sched] in *. subst rr.
  rewrite Hk, Hset. cbn [snd ks_rounds ks_sched]. rewrite Nat2N.id, skipn_map.
  exists (skipn 4 hdr), ss. split; [rewrite skipn_length, Hh; reflexivity|]. split; [exact Hlen|]. split; [reflexivity | exact Hspec].
Qed.

Theorem c_set_key_then_encrypt64_spec :
  forall (z : nat) code fuel pl' sh' c t,                                (* skinny64_ecb_encrypt at the round count of z *)
  In z [1; 2; 3] ->
  flat [ksf] fuel [0; 0; 0]%N [(ksf, N.of_nat (skinny64_rounds z))] code = Some (pl', sh', c, t) ->
  check_block_w callP sizes64 2 4 c (enc_offs 4 4 (skinny64_rounds z))
    (enc_stepsW poly (k64_subcells poly pxor pand pzero pone) (k64_enc_linear poly pxor pzero pone) (skinny64_rounds z))
    (enc_stepsW bool (k64_subcells bool xorb andb false true) (k64_enc_linear bool xorb false true) (skinny64_rounds z)) = true ->
  forall (key hdr out blk st : list byte) (sched : list (half nib)) (rest : mem bool),
  length key = 8 * z -> length hdr = 4 -> length sched = 40 -> length out = 8 -> length blk = 8 -> length st = 8 ->
  (* the key-schedule object after skinny64_set_key(ks, key, 16 z), whatever it held before *)
  let ksobj := nth 0 (w_set_key64 bool xorb false true (length key)
                        ((bitsB hdr ++ concat (map (KernelSpecs2.half_bytes64 bool) sched)) :: bitsB key :: rest)) [] in
  exists st', interp [ksf] callB fuel [0; 0; 0]%N (([bitsB out; bitsB blk; ksobj; bitsB st] : mem bool), []) code = Some (pl', st', t)
    /\ nth 0 (fst st') [] = bitsB (skinny64_enc z key blk)
    /\ nth 1 (fst st') [] = bitsB blk /\ nth 2 (fst st') [] = ksobj.
Proof.
  intros z code fuel pl' sh' c t Hz Hflat Hcheck key hdr out blk st sched rest Hk Hh Hs Ho Hb Hst. cbv zeta.
  destruct (set_key_obj64 z key hdr sched rest Hz Hk Hh Hs) as (tail & ss & Ht & Hlen & Hobj & Hspec).
  exact (block_on_imageR 8 4 40 _ _ code fuel _ pl' t (fun s => m64_encrypt {| ks_rounds := _; ks_sched := s |})
           (rounds_lt_2_32 _ 40 (m64_rounds_le z) eq_refl)
           (enc64_final code fuel _ pl' sh' c t (m64_rounds_pos z) (m64_rounds_le z) Hflat Hcheck)
           out blk st tail ss _ _ Ho Hb Hst Ht Hlen Hobj (proj1 (Hspec blk Hb))).
Qed.

Theorem c_set_key_then_decrypt64_spec :
  forall (z : nat) code fuel pl' sh' c t,                                (* skinny64_ecb_decrypt at the round count of z *)
  In z [1; 2; 3] ->
  flat [ksf] fuel [0; 0; 0]%N [(ksf, N.of_nat (skinny64_rounds z))] code = Some (pl', sh', c, t) ->
  check_block_w callP sizes64 2 4 c (dec_offs 4 4 (skinny64_rounds z))
    (dec_stepsW poly (k64_subcells_inv poly pxor pand pzero pone) (k64_dec_linear poly pxor pzero pone) (skinny64_rounds z))
    (dec_stepsW bool (k64_subcells_inv bool xorb andb false true) (k64_dec_linear bool xorb false true) (skinny64_rounds z)) = true ->
  forall (key hdr out blk st : list byte) (sched : list (half nib)) (rest : mem bool),
  length key = 8 * z -> length hdr = 4 -> length sched = 40 -> length out = 8 -> length blk = 8 -> length st = 8 ->
  (* the key-schedule object after skinny64_set_key(ks, key, 16 z), whatever it held before *)
  let ksobj := nth 0 (w_set_key64 bool xorb false true (length key)
                        ((bitsB hdr ++ concat (map (KernelSpecs2.half_bytes64 bool) sched)) :: bitsB key :: rest)) [] in
  exists st', interp [ksf] callB fuel [0; 0; 0]%N (([bitsB out; bitsB blk; ksobj; bitsB st] : mem bool), []) code = Some (pl', st', t)
    /\ nth 0 (fst st') [] = bitsB (skinny64_dec z key blk)
    /\ nth 1 (fst st') [] = bitsB blk /\ nth 2 (fst st') [] = ksobj.
Proof.
  intros z code fuel pl' sh' c t Hz Hflat Hcheck key hdr out blk st sched rest Hk Hh Hs Ho Hb Hst. cbv zeta.
  destruct (set_key_obj64 z key hdr sched rest Hz Hk Hh Hs) as (tail & ss & Ht & Hlen & Hobj & Hspec).
  exact (block_on_imageR 8 4 40 _ _ code fuel _ pl' t (fun s => m64_decrypt {| ks_rounds := _; ks_sched := s |})
           (rounds_lt_2_32 _ 40 (m64_rounds_le z) eq_refl)
           (dec64_final code fuel _ pl' sh' c t (m64_rounds_pos z) (m64_rounds_le z) Hflat Hcheck)
           out blk st tail ss _ _ Ho Hb Hst Ht Hlen Hobj (proj2 (Hspec blk Hb))).
Qed.
Print Assumptions c_set_key_then_encrypt128_spec.
Print Assumptions c_set_key_then_decrypt128_spec.
Print Assumptions c_set_key_then_encrypt64_spec.
Print Assumptions c_set_key_then_decrypt64_spec.
