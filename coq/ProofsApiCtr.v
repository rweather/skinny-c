(* ProofsApiCtr.v — the CTR / parallel results of ProofsCtr.v, ProofsSkinny.v and ProofsMantis.v lifted to
   the API step function of Api.v: C05 (stream refinement), C06 (back-end independence and
   the refutation of its unrestricted form), C07 (parallel = block by block).  Last, C03: round
   trips of the block functions m128_encrypt ... and of their block-by-block maps, which by C07 are
   what the parallel entry points compute; these are not statements about step. *)
From Coq Require Import List NArith Arith Lia.
From Skinny Require Import ListFacts Bits ModelCipher ModelCtr ModelCpu Api ProofsSkinny ProofsMantis ProofsCtr.
Import ListNotations.

Lemma lookup_store_same : forall w id o, lookup (store_obj w id o) id = Some o.
Proof.
  intros w id o. unfold lookup, store_obj. cbn [w_objs find fst].
  rewrite N.eqb_refl. reflexivity.
Qed.

Lemma lookup_store_other : forall w id id' o, id' <> id ->
  lookup (store_obj w id o) id' = lookup w id'.
Proof.
  intros w id id' o Hne. unfold lookup, store_obj. cbn [w_objs find fst].
  destruct (N.eqb_spec id id') as [E|_]; [congruence|].
  (* dropping the entries of id does not change what a search for id' finds *)
  induction (w_objs w) as [|[i oi] l IH]; [reflexivity|].
  cbn [filter find fst]. destruct (N.eqb_spec i id) as [->|Hi]; cbn [negb].
  - destruct (N.eqb_spec id id') as [E|_]; [congruence|exact IH].
  - cbn [find fst]. destruct (N.eqb i id'); [reflexivity|exact IH].
Qed.

Lemma store128_length s : length (store128 s) = 16.
Proof. now dstate s. Qed.
Lemma store64_length s : length (store64 s) = 8.
Proof. now dstate s. Qed.

Lemma m128_encrypt_length : forall ks blk, length (m128_encrypt ks blk) = 16.
Proof. intros. apply store128_length. Qed.
Lemma m128_decrypt_length : forall ks blk, length (m128_decrypt ks blk) = 16.
Proof. intros. apply store128_length. Qed.
Lemma m64_encrypt_length : forall ks blk, length (m64_encrypt ks blk) = 8.
Proof. intros. apply store64_length. Qed.
Lemma m64_decrypt_length : forall ks blk, length (m64_decrypt ks blk) = 8.
Proof. intros. apply store64_length. Qed.
Lemma mantis_crypt_length : forall ks blk, length (mantis_crypt ks blk) = 8.
Proof. intros. apply store64_length. Qed.
Lemma mantis_crypt_tweaked_length : forall ks tw blk, length (mantis_crypt_tweaked ks tw blk) = 8.
Proof. intros. apply store64_length. Qed.

Lemma E128_length : forall t blk, length (E128 t blk) = 16.
Proof. intros. apply store128_length. Qed.
Lemma E64_length : forall t blk, length (E64 t blk) = 8.
Proof. intros. apply store64_length. Qed.

Lemma batch128_pos be : 0 < batch128 be.
Proof. destruct be; cbn; lia. Qed.
Lemma batch64_pos be : 0 < batch64 be.
Proof. destruct be; cbn; lia. Qed.

Lemma run_acc : forall ops w acc,
  fold_left (fun a o => let '(w', ev) := step (fst a) o in (w', snd a ++ [ev])) ops (w, acc)
  = (fst (run w ops), acc ++ snd (run w ops)).
Proof.
  unfold run. induction ops as [|o ops IH]; intros w acc; cbn [fold_left fst snd].
  - now rewrite app_nil_r.
  - destruct (step w o) as [w1 ev]. rewrite (IH w1 (acc ++ [ev])), (IH w1 ([] ++ [ev])).
    cbn [fst snd app]. now rewrite <- app_assoc.
Qed.

Lemma run_nil w : run w [] = (w, []).
Proof. reflexivity. Qed.

Lemma run_cons w o ops :
  run w (o :: ops) = (fst (run (fst (step w o)) ops), snd (step w o) :: snd (run (fst (step w o)) ops)).
Proof.
  unfold run at 1. cbn [fold_left fst snd]. destruct (step w o) as [w1 ev]. now rewrite run_acc.
Qed.

(* A CTR data call as scripts issue it: buffer d, size = length d, output pointer non-NULL *)
Definition crypt_op (k : kind) (id : N) (d : list byte) : op :=
  OCrypt k (Some id) (Some d) (N.of_nat (length d)) false.

Definition ret_out (o : list byte) : list event := [ERetOut 1 o].

Section CtrApi.
  Variable K : Type.
  Variable E : K -> list byte -> list byte.
  Variable bs : nat.
  Variable batch : backend -> nat.
  Variable wrap : ctrobj K -> obj.
  Variable kd : kind.
  Hypothesis Hbs : 0 < bs.
  Hypothesis Hbatch : forall be, 0 < batch be.
  Hypothesis HE : forall k blk, length (E k blk) = bs.
  Hypothesis Hstep : forall w id c inp size outnull, lookup w id = Some (wrap c) ->
    step w (OCrypt kd (Some id) inp size outnull) = ctr_crypt K E bs batch wrap w id c inp size outnull.

  Lemma step_crypt_op w id be n st d st' o :
    lookup w id = Some (wrap (CLive be n st)) -> crypt K E bs (batch be) st d = Some (st', o) ->
    step w (crypt_op kd id d) = (store_obj w id (wrap (CLive be n st')), [ERetOut 1 o]).
  Proof.
    intros Hl Hc. unfold crypt_op. rewrite (Hstep w id _ _ _ _ Hl). unfold ctr_crypt.
    rewrite Nat2N.id, (pad_to_id _ _ eq_refl), Hc. reflexivity.
  Qed.

  Lemma run_crypt_ops id be n : forall datas w st st' outs,
    lookup w id = Some (wrap (CLive be n st)) ->
    run_calls K E bs (batch be) st datas = Some (st', outs) ->
    exists w', run w (map (crypt_op kd id) datas) = (w', map (fun o => [ERetOut 1 o]) outs)
      /\ lookup w' id = Some (wrap (CLive be n st')).
  Proof.
    induction datas as [|d datas IH]; intros w st st' outs Hl Hr.
    - cbn [run_calls] in Hr. injection Hr as <- <-. exists w. split; [reflexivity|exact Hl].
    - cbn [run_calls] in Hr.
      destruct (crypt K E bs (batch be) st d) as [[st1 o]|] eqn:Hc; [|discriminate].
      destruct (run_calls K E bs (batch be) st1 datas) as [[st2 os]|] eqn:Hr2; [|discriminate].
      injection Hr as <- <-.
      destruct (IH (store_obj w id (wrap (CLive be n st1))) st1 st2 os
                  (lookup_store_same _ _ _) Hr2) as (w' & Hrun & Hl').
      exists w'. split; [|exact Hl'].
      cbn [map]. rewrite run_cons, (step_crypt_op w id be n st d st1 o Hl Hc).
      cbn [fst snd]. rewrite Hrun. reflexivity.
  Qed.

  Theorem api_ctr_stream_gen : forall w id be n st c0 (datas : list (list byte)),
    lookup w id = Some (wrap (CLive be n st)) -> fresh_at K bs (batch be) st c0 ->
    exists w' outs st',
      run w (map (crypt_op kd id) datas) = (w', map (fun o => [ERetOut 1 o]) outs)
      /\ concat outs = ctr_xor bs (E (c_key st)) c0 0 (concat datas)
      /\ map (@length byte) outs = map (@length byte) datas
      /\ lookup w' id = Some (wrap (CLive be n st')) /\ c_key st' = c_key st.
  Proof.
    intros w id be n st c0 datas Hl Hf.
    destruct (ctr_refinement K E bs (batch be) Hbs (Hbatch be) HE st c0 datas Hf)
      as (st' & outs & Hr & Hc & Hm & Hk).
    destruct (run_crypt_ops id be n datas w st st' outs Hl Hr) as (w' & Hrun & Hl').
    exists w', outs, st'. repeat split; assumption.
  Qed.

  Theorem api_ctr_backend_independent_gen : forall w1 w2 id be1 be2 n1 n2 st1 st2 c0 datas,
    lookup w1 id = Some (wrap (CLive be1 n1 st1)) -> lookup w2 id = Some (wrap (CLive be2 n2 st2)) ->
    c_key st1 = c_key st2 ->
    fresh_at K bs (batch be1) st1 c0 -> fresh_at K bs (batch be2) st2 c0 ->
    snd (run w1 (map (crypt_op kd id) datas)) = snd (run w2 (map (crypt_op kd id) datas)).
  Proof.
    intros w1 w2 id be1 be2 n1 n2 st1 st2 c0 datas L1 L2 Hk F1 F2.
    destruct (api_ctr_stream_gen w1 id be1 n1 st1 c0 datas L1 F1)
      as (w1' & o1 & s1 & R1 & C1 & M1 & _).
    destruct (api_ctr_stream_gen w2 id be2 n2 st2 c0 datas L2 F2)
      as (w2' & o2 & s2 & R2 & C2 & M2 & _).
    rewrite R1, R2. cbn [snd]. f_equal. apply split_by_lengths.
    - rewrite C1, C2, Hk. reflexivity.
    - rewrite M1, M2. reflexivity.
  Qed.
End CtrApi.

Lemma step_crypt128 : forall w id c inp size outnull, lookup w id = Some (OC128 c) ->
  step w (OCrypt C128 (Some id) inp size outnull)
  = ctr_crypt tks128 E128 16 batch128 OC128 w id c inp size outnull.
Proof. intros w id c inp size outnull H. unfold step. rewrite H. reflexivity. Qed.
Lemma step_crypt64 : forall w id c inp size outnull, lookup w id = Some (OC64 c) ->
  step w (OCrypt C64 (Some id) inp size outnull)
  = ctr_crypt tks64 E64 8 batch64 OC64 w id c inp size outnull.
Proof. intros w id c inp size outnull H. unfold step. rewrite H. reflexivity. Qed.
Lemma step_cryptm : forall w id c inp size outnull, lookup w id = Some (OMC c) ->
  step w (OCrypt MC (Some id) inp size outnull)
  = ctr_crypt mantis_ks mantis_crypt 8 batch64 OMC w id c inp size outnull.
Proof. intros w id c inp size outnull H. unfold step. rewrite H. reflexivity. Qed.

Theorem api_ctr128_stream : forall w id be n st c0 (datas : list (list byte)),
  lookup w id = Some (OC128 (CLive be n st)) -> fresh_at tks128 16 (batch128 be) st c0 ->
  exists w' outs st',
    run w (map (crypt_op C128 id) datas) = (w', map (fun o => [ERetOut 1 o]) outs)
    /\ concat outs = ctr_xor 16 (E128 (c_key st)) c0 0 (concat datas)
    /\ map (@length byte) outs = map (@length byte) datas
    /\ lookup w' id = Some (OC128 (CLive be n st')) /\ c_key st' = c_key st.
Proof.
  exact (api_ctr_stream_gen tks128 E128 16 batch128 OC128 C128 (Nat.lt_0_succ _)
           batch128_pos E128_length step_crypt128).
Qed.

Theorem api_ctr64_stream : forall w id be n st c0 (datas : list (list byte)),
  lookup w id = Some (OC64 (CLive be n st)) -> fresh_at tks64 8 (batch64 be) st c0 ->
  exists w' outs st',
    run w (map (crypt_op C64 id) datas) = (w', map (fun o => [ERetOut 1 o]) outs)
    /\ concat outs = ctr_xor 8 (E64 (c_key st)) c0 0 (concat datas)
    /\ map (@length byte) outs = map (@length byte) datas
    /\ lookup w' id = Some (OC64 (CLive be n st')) /\ c_key st' = c_key st.
Proof.
  exact (api_ctr_stream_gen tks64 E64 8 batch64 OC64 C64 (Nat.lt_0_succ _)
           batch64_pos E64_length step_crypt64).
Qed.

Theorem api_mctr_stream : forall w id be n st c0 (datas : list (list byte)),
  lookup w id = Some (OMC (CLive be n st)) -> fresh_at mantis_ks 8 (batch64 be) st c0 ->
  exists w' outs st',
    run w (map (crypt_op MC id) datas) = (w', map (fun o => [ERetOut 1 o]) outs)
    /\ concat outs = ctr_xor 8 (mantis_crypt (c_key st)) c0 0 (concat datas)
    /\ map (@length byte) outs = map (@length byte) datas
    /\ lookup w' id = Some (OMC (CLive be n st')) /\ c_key st' = c_key st.
Proof.
  exact (api_ctr_stream_gen mantis_ks mantis_crypt 8 batch64 OMC MC (Nat.lt_0_succ _)
           batch64_pos mantis_crypt_length step_cryptm).
Qed.

(* C06 at API level: the same calls on two objects served by different back ends give
   identical result lines, as long as both streams start from the same counter under
   the same key *)
Theorem api_ctr128_backend_independent : forall w1 w2 id be1 be2 n1 n2 st1 st2 c0 datas,
  lookup w1 id = Some (OC128 (CLive be1 n1 st1)) -> lookup w2 id = Some (OC128 (CLive be2 n2 st2)) ->
  c_key st1 = c_key st2 ->
  fresh_at tks128 16 (batch128 be1) st1 c0 -> fresh_at tks128 16 (batch128 be2) st2 c0 ->
  snd (run w1 (map (crypt_op C128 id) datas)) = snd (run w2 (map (crypt_op C128 id) datas)).
Proof.
  exact (api_ctr_backend_independent_gen tks128 E128 16 batch128 OC128 C128 (Nat.lt_0_succ _)
           batch128_pos E128_length step_crypt128).
Qed.

Theorem api_ctr64_backend_independent : forall w1 w2 id be1 be2 n1 n2 st1 st2 c0 datas,
  lookup w1 id = Some (OC64 (CLive be1 n1 st1)) -> lookup w2 id = Some (OC64 (CLive be2 n2 st2)) ->
  c_key st1 = c_key st2 ->
  fresh_at tks64 8 (batch64 be1) st1 c0 -> fresh_at tks64 8 (batch64 be2) st2 c0 ->
  snd (run w1 (map (crypt_op C64 id) datas)) = snd (run w2 (map (crypt_op C64 id) datas)).
Proof.
  exact (api_ctr_backend_independent_gen tks64 E64 8 batch64 OC64 C64 (Nat.lt_0_succ _)
           batch64_pos E64_length step_crypt64).
Qed.

Theorem api_mctr_backend_independent : forall w1 w2 id be1 be2 n1 n2 st1 st2 c0 datas,
  lookup w1 id = Some (OMC (CLive be1 n1 st1)) -> lookup w2 id = Some (OMC (CLive be2 n2 st2)) ->
  c_key st1 = c_key st2 ->
  fresh_at mantis_ks 8 (batch64 be1) st1 c0 -> fresh_at mantis_ks 8 (batch64 be2) st2 c0 ->
  snd (run w1 (map (crypt_op MC id) datas)) = snd (run w2 (map (crypt_op MC id) datas)).
Proof.
  exact (api_ctr_backend_independent_gen mantis_ks mantis_crypt 8 batch64 OMC MC (Nat.lt_0_succ _)
           batch64_pos mantis_crypt_length step_cryptm).
Qed.

(* ... and the unrestricted statement is false of the faithful model (and of the
   library): a key change in the middle of a batch makes the generic and the 128-bit
   SIMD back end continue at different counters. *)
(* the real CPU of c06_world is ProofsCpu.avx2_cpu, field by field *)
Definition c06_world (be : backend) : world :=
  with_cpu (init_world {| has128 := true; has256 := true |}
              {| max_leaf := 13; l1_ecx := 0x7ffafbff%N; l1_edx := 0xbfebfbff%N; l7_ebx0 := 0x20%N;
                 l7_ebxN := 0; xcr0 := 7; oor_ebx := 0 |})
           (CpuPinned be).
Definition c06_witness : list op :=
  [ONew C128 1 byte0; OInit C128 (Some 1%N);
   OSetKey C128 (Some 1%N) (Some (zeros 16)) 16;
   OCrypt C128 (Some 1%N) (Some (zeros 1)) 1 false;   (* one byte: the generic back end has used block 0 only *)
   OSetKey C128 (Some 1%N) (Some (zeros 16)) 16;      (* "rekey" (same key is enough) without a counter set *)
   OCrypt C128 (Some 1%N) (Some (zeros 16)) 16 false].

(* the observation: the bytes returned by the last operation *)
Definition c06_obs (evs : list (list event)) : list N :=
  match last evs [] with
  | [ERetOut _ o] => Ns_of_bytes o
  | _ => []
  end.

Lemma c06_obs_BDef :
  c06_obs (snd (run (c06_world BDef) c06_witness))
  = [249; 89; 39; 191; 141; 146; 191; 241; 203; 7; 219; 137; 239; 41; 181; 242]%N.
Proof. vm_compute. reflexivity. Qed.

Lemma c06_obs_BV128 :
  c06_obs (snd (run (c06_world BV128) c06_witness))
  = [211; 10; 210; 49; 0; 233; 53; 160; 109; 156; 189; 189; 2; 88; 118; 50]%N.
Proof. vm_compute. reflexivity. Qed.

(* the two objects really are served by different back ends *)
Lemma c06_backends :
  snd (run (c06_world BDef) (firstn 2 c06_witness ++ [OWhich C128 (Some 1%N)]))
  = [[]; [EAlloc 1; ERet 1]; [EWhich (Some BDef)]]
  /\ snd (run (c06_world BV128) (firstn 2 c06_witness ++ [OWhich C128 (Some 1%N)]))
  = [[]; [EAlloc 1; ERet 1]; [EWhich (Some BV128)]].
Proof. split; vm_compute; reflexivity. Qed.

Theorem c06_unrestricted_refuted :
  snd (run (c06_world BDef) c06_witness) <> snd (run (c06_world BV128) c06_witness).
Proof.
  intros H. apply (f_equal c06_obs) in H. rewrite c06_obs_BDef, c06_obs_BV128 in H.
  discriminate H.
Qed.

Section ParApi.
  Variable K : Type.
  Variable bs : nat.
  Hypothesis Hbs : 0 < bs.

  Lemma par_run_ok w vt n (k : K) ps f tw data :
    0 < N.to_nat ps /\ N.to_nat ps mod bs = 0 -> length data mod bs = 0 ->
    length tw = length data ->
    par_run K bs w (PObj vt (Some (n, k)) ps) (N.of_nat (length data)) f tw data
    = (w, [ERetOut 1 (concat (map (fun p => f k (fst p) (snd p))
                                  (combine (blocks bs tw) (blocks bs data))))]).
  Proof.
    intros [Hp Hpm] Hd Ht. unfold par_run.
    rewrite <- Nat2N.inj_mod, Hd. cbn [N.of_nat N.eqb negb]. rewrite Nat2N.id.
    rewrite <- Ht at 1. rewrite !(pad_to_id _ _ eq_refl).
    rewrite (par_crypt_spec bs (f k) _ (N.to_nat ps) tw data Hbs Hp Hpm Hd Ht). reflexivity.
  Qed.

  (* the SKINNY entry points take no tweak: step hands par_run the data in the tweak's place and
     a block function that ignores it *)
  Lemma par_run_ok_diag w vt n (k : K) ps (g : K -> list byte -> list byte) data :
    0 < N.to_nat ps /\ N.to_nat ps mod bs = 0 -> length data mod bs = 0 ->
    par_run K bs w (PObj vt (Some (n, k)) ps) (N.of_nat (length data)) (fun ks _ b => g ks b) data data
    = (w, [ERetOut 1 (concat (map (g k) (blocks bs data)))]).
  Proof.
    intros Hp Hd. rewrite par_run_ok by auto. cbv beta.
    rewrite (map_combine_diag (g k)). reflexivity.
  Qed.
End ParApi.

Lemma psize128_ok ps : (ps = 64 \/ ps = 128)%N -> 0 < N.to_nat ps /\ N.to_nat ps mod 16 = 0.
Proof. intros [-> | ->]; split; try reflexivity; cbn; lia. Qed.
Lemma psize64_ok ps : ps = 64%N -> 0 < N.to_nat ps /\ N.to_nat ps mod 8 = 0.
Proof. intros ->; split; try reflexivity; cbn; lia. Qed.

Theorem api_par128_enc : forall w id vt n ks ps data,
  lookup w id = Some (OP128 (PObj vt (Some (n, ks)) ps)) -> (ps = 64 \/ ps = 128)%N ->
  length data mod 16 = 0 ->
  step w (OParEnc P128 (Some id) data (N.of_nat (length data)))
  = (w, [ERetOut 1 (concat (map (m128_encrypt ks) (blocks 16 data)))]).
Proof.
  intros w id vt n ks ps data Hl Hps Hd. unfold step. rewrite Hl.
  exact (par_run_ok_diag ks128 16 (Nat.lt_0_succ _) w vt n ks ps m128_encrypt data (psize128_ok ps Hps) Hd).
Qed.

Theorem api_par128_dec : forall w id vt n ks ps data,
  lookup w id = Some (OP128 (PObj vt (Some (n, ks)) ps)) -> (ps = 64 \/ ps = 128)%N ->
  length data mod 16 = 0 ->
  step w (OParDec P128 (Some id) data (N.of_nat (length data)))
  = (w, [ERetOut 1 (concat (map (m128_decrypt ks) (blocks 16 data)))]).
Proof.
  intros w id vt n ks ps data Hl Hps Hd. unfold step. rewrite Hl.
  exact (par_run_ok_diag ks128 16 (Nat.lt_0_succ _) w vt n ks ps m128_decrypt data (psize128_ok ps Hps) Hd).
Qed.

Theorem api_par64_enc : forall w id vt n ks ps data,
  lookup w id = Some (OP64 (PObj vt (Some (n, ks)) ps)) -> ps = 64%N ->
  length data mod 8 = 0 ->
  step w (OParEnc P64 (Some id) data (N.of_nat (length data)))
  = (w, [ERetOut 1 (concat (map (m64_encrypt ks) (blocks 8 data)))]).
Proof.
  intros w id vt n ks ps data Hl Hps Hd. unfold step. rewrite Hl.
  exact (par_run_ok_diag ks64 8 (Nat.lt_0_succ _) w vt n ks ps m64_encrypt data (psize64_ok ps Hps) Hd).
Qed.

Theorem api_par64_dec : forall w id vt n ks ps data,
  lookup w id = Some (OP64 (PObj vt (Some (n, ks)) ps)) -> ps = 64%N ->
  length data mod 8 = 0 ->
  step w (OParDec P64 (Some id) data (N.of_nat (length data)))
  = (w, [ERetOut 1 (concat (map (m64_decrypt ks) (blocks 8 data)))]).
Proof.
  intros w id vt n ks ps data Hl Hps Hd. unfold step. rewrite Hl.
  exact (par_run_ok_diag ks64 8 (Nat.lt_0_succ _) w vt n ks ps m64_decrypt data (psize64_ok ps Hps) Hd).
Qed.

Theorem api_mpar_crypt : forall w id vt n ks ps data tw,
  lookup w id = Some (OMP (PObj vt (Some (n, ks)) ps)) -> ps = 64%N ->
  length data mod 8 = 0 -> length tw = length data ->
  step w (OMParCrypt (Some id) data tw (N.of_nat (length data)))
  = (w, [ERetOut 1 (concat (map (fun p => mantis_crypt_tweaked ks (fst p) (snd p))
                                (combine (blocks 8 tw) (blocks 8 data))))]).
Proof.
  intros w id vt n ks ps data tw Hl Hps Hd Ht. unfold step. rewrite Hl.
  exact (par_run_ok mantis_ks 8 (Nat.lt_0_succ _) w vt n ks ps mantis_crypt_tweaked tw data
           (psize64_ok ps Hps) Hd Ht).
Qed.

(* C03 for the block functions the API calls.  The round trips below are ProofsSkinny.ecb_roundtrip,
   which holds under ANY schedule; so they use none of their hypotheses about the key. *)
Theorem m128_keyed_roundtrip : forall (ks : ks128) key (n : nat) ks', 16 <= n <= 48 ->
  length key = n -> length (ks_sched byte ks) = 56 ->
  m128_set_key ks (Some key) (N.of_nat n) = (1%N, ks') ->
  forall blk, length blk = 16 ->
    m128_decrypt ks' (m128_encrypt ks' blk) = blk /\ m128_encrypt ks' (m128_decrypt ks' blk) = blk.
Proof.
  intros ks key n ks' _ _ _ _ blk H.
  apply (ecb_roundtrip byte bxor8 cnib8 S8b S8ib load128 store128 byte0
           bxor8_assoc bxor8_comm bxor8_nilp bxor8_0_r S8_inv_l S8_inv_r load_store128),
    store_load128, H.
Qed.

Theorem m64_keyed_roundtrip : forall (ks : ks64) key (n : nat) ks', 8 <= n <= 24 ->
  length key = n -> length (ks_sched nib ks) = 40 ->
  m64_set_key ks (Some key) (N.of_nat n) = (1%N, ks') ->
  forall blk, length blk = 8 ->
    m64_decrypt ks' (m64_encrypt ks' blk) = blk /\ m64_encrypt ks' (m64_decrypt ks' blk) = blk.
Proof.
  intros ks key n ks' _ _ _ _ blk H.
  apply (ecb_roundtrip nib bxor4 cnib4 S4b S4ib load64 store64 nib0
           bxor4_assoc bxor4_comm bxor4_nilp bxor4_0_r S4_inv_l S4_inv_r load_store64),
    store_load64, H.
Qed.

(* a parallel call with g undoes one with f, block by block (and tweak by tweak) *)
Section ParRoundtrip.
  Variable bs : nat.
  Hypothesis Hbs : 0 < bs.

  Lemma blocks_concat_map {A} (h : A -> list byte) l : (forall x, length (h x) = bs) ->
    blocks bs (concat (map h l)) = map h l.
  Proof.
    intros Hh. apply (blocks_of_concat bs Hbs), Forall_forall.
    intros x Hx. apply in_map_iff in Hx as (y & <- & _). apply Hh.
  Qed.

  Lemma vec_batch_roundtrip (f g : list byte -> list byte -> list byte) tw data :
    (forall t b, length (f t b) = bs) -> (forall t b, length b = bs -> g t (f t b) = b) ->
    length data mod bs = 0 -> length tw = length data ->
    vec_batch bs g tw (vec_batch bs f tw data) = data.
  Proof.
    intros Hf Hgf Hd Ht. unfold vec_batch.
    destruct (blocks_length bs data Hbs Hd) as [HF HLd].
    destruct (blocks_length bs tw Hbs) as [_ HLt]; [now rewrite Ht|].
    rewrite blocks_concat_map by (intros [t b]; apply Hf).
    rewrite (map_combine_roundtrip (fun b => length b = bs) f g Hgf) by (assumption || congruence).
    now apply blocks_concat.
  Qed.

  Variables f g : list byte -> list byte.
  Hypothesis Hf : forall b, length (f b) = bs.
  Hypothesis Hgf : forall b, length b = bs -> g (f b) = b.

  Lemma par_roundtrip_gen data : length data mod bs = 0 ->
    concat (map g (blocks bs (concat (map f (blocks bs data))))) = data.
  Proof.
    intros Hd. destruct (blocks_length bs data Hbs Hd) as [HF _].
    rewrite (blocks_concat_map f _ Hf), map_map, (map_ext_Forall _ id), map_id.
    - now apply blocks_concat.
    - revert HF. apply Forall_impl, Hgf.
  Qed.
End ParRoundtrip.

Theorem par128_roundtrip : forall (ks : ks128) key (n : nat) ks' data, 16 <= n <= 48 ->
  length key = n -> length (ks_sched byte ks) = 56 ->
  m128_set_key ks (Some key) (N.of_nat n) = (1%N, ks') -> length data mod 16 = 0 ->
  concat (map (m128_decrypt ks') (blocks 16 (concat (map (m128_encrypt ks') (blocks 16 data))))) = data
  /\ concat (map (m128_encrypt ks') (blocks 16 (concat (map (m128_decrypt ks') (blocks 16 data))))) = data.
Proof.
  intros ks key n ks' data Hn Hl Hs Hk Hd.
  pose proof (m128_keyed_roundtrip ks key n ks' Hn Hl Hs Hk) as RT.
  split; apply par_roundtrip_gen; auto using m128_encrypt_length, m128_decrypt_length;
    try lia; intros b Hb; apply (RT b Hb).
Qed.

Theorem par64_roundtrip : forall (ks : ks64) key (n : nat) ks' data, 8 <= n <= 24 ->
  length key = n -> length (ks_sched nib ks) = 40 ->
  m64_set_key ks (Some key) (N.of_nat n) = (1%N, ks') -> length data mod 8 = 0 ->
  concat (map (m64_decrypt ks') (blocks 8 (concat (map (m64_encrypt ks') (blocks 8 data))))) = data
  /\ concat (map (m64_encrypt ks') (blocks 8 (concat (map (m64_decrypt ks') (blocks 8 data))))) = data.
Proof.
  intros ks key n ks' data Hn Hl Hs Hk Hd.
  pose proof (m64_keyed_roundtrip ks key n ks' Hn Hl Hs Hk) as RT.
  split; apply par_roundtrip_gen; auto using m64_encrypt_length, m64_decrypt_length;
    try lia; intros b Hb; apply (RT b Hb).
Qed.

(* MANTIS: the parallel entry point after a mode swap inverts the parallel entry point before it *)
Theorem mpar_roundtrip : forall (ks : mantis_ks) tw data, length data mod 8 = 0 ->
  length tw = length data ->
  let run_par k d := concat (map (fun p => mantis_crypt_tweaked k (fst p) (snd p))
                                 (combine (blocks 8 tw) (blocks 8 d))) in
  run_par (mantis_swap_modes ks) (run_par ks data) = data.
Proof.
  intros ks tw data Hd Ht.
  apply (vec_batch_roundtrip 8 (Nat.lt_0_succ _) (mantis_crypt_tweaked ks)
           (mantis_crypt_tweaked (mantis_swap_modes ks))); try assumption.
  - apply mantis_crypt_tweaked_length.
  - intros t b Hb. now apply crypt_tweaked_swap_inverse.
Qed.

Print Assumptions lookup_store_same.
Print Assumptions lookup_store_other.
Print Assumptions m128_encrypt_length.
Print Assumptions m128_decrypt_length.
Print Assumptions m64_encrypt_length.
Print Assumptions m64_decrypt_length.
Print Assumptions mantis_crypt_length.
Print Assumptions mantis_crypt_tweaked_length.
Print Assumptions api_ctr128_stream.
Print Assumptions api_ctr64_stream.
Print Assumptions api_mctr_stream.
Print Assumptions api_ctr128_backend_independent.
Print Assumptions api_ctr64_backend_independent.
Print Assumptions api_mctr_backend_independent.
Print Assumptions c06_backends.
Print Assumptions c06_unrestricted_refuted.
Print Assumptions api_par128_enc.
Print Assumptions api_par128_dec.
Print Assumptions api_par64_enc.
Print Assumptions api_par64_dec.
Print Assumptions api_mpar_crypt.
Print Assumptions m128_keyed_roundtrip.
Print Assumptions m64_keyed_roundtrip.
Print Assumptions par128_roundtrip.
Print Assumptions par64_roundtrip.
Print Assumptions mpar_roundtrip.
