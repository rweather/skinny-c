(* WholeCtrKey.v — the key / tweak setters of the CTR back ends (skinny128/64_ctr_{def,vec128,vec256}_set_key, _set_tweaked_key,
   _set_tweak; mantis_ctr_{def,vec128}_set_key, _set_tweak) as WHOLE functions: they run the cipher's own key function on the
   key-schedule object at the start of the context and reset the buffered key stream (offset := L * bs).  The specification
   LIFTS the key-schedule specifications of WholeKey.v / WholeMantisKey.v (which are tied to the model there) to the context:

        context' = inner([first kobj bytes of the context; key]) ++ rest of the context,   offset field := L * bs

   Memory: 0 = the CTR object, 1 = key / tweak, rctx = the context. *)
From Coq Require Import List NArith.
From Skinny Require Import IR Anf IRCheck KernelSpecs KernelSpecs2 KernelHom2 WholeSpecs.
Import ListNotations.

Section Lift.
  Variable B : Type.
  Variables (b0 b1 : B).
  Notation reg := (reg B).
  Definition w_ctr_lift (inner : mem B -> mem B) (kobj ooff BSZ rctx : nat) (m : mem B) : mem B :=
    let ctx := reg m rctx in
    let r := inner [firstn kobj ctx; reg m 1] in
    [reg m 0; reg m 1;
     splice B (reg r 0 ++ skipn kobj ctx) ooff (bytes_of B b0 4 (const_bits B b0 b1 32 (N.of_nat BSZ)))].
End Lift.

Lemma w_ctr_lift_homU : forall innerP innerB kobj ooff BSZ rctx, homU innerP innerB ->
  homU (w_ctr_lift poly pzero pone innerP kobj ooff BSZ rctx) (w_ctr_lift bool false true innerB kobj ooff BSZ rctx).
Proof.
  intros innerP innerB kobj ooff BSZ rctx H rho m. unfold w_ctr_lift. cbv zeta.
  unfold mmap at 1. cbn [map]. rewrite !reg_mmap. f_equal. f_equal. f_equal.
  unfold vmap.
  rewrite hb_splice, map_app, skipn_map.
  rewrite (bytes_of_hom poly bool pzero false (peval rho) eq_refl), (const_bits_hom poly bool pzero pone false true (peval rho) eq_refl eq_refl).
  f_equal. f_equal.
  fold (vmap rho). rewrite <- (reg_mmap rho (innerP _) 0), H. unfold mmap at 1. cbn [map]. rewrite firstn_map. reflexivity.
Qed.
Print Assumptions w_ctr_lift_homU.
