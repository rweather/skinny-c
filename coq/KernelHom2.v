(* KernelHom2.v — the specification steps of KernelSpecs2.v (key-schedule loop bodies, MANTIS round segments)
   commute with a homomorphism of bit carriers ([_homG], [_hom] as in KernelHom.v).  On bool, a key-schedule body
   applied to [tk; pre ++ slot ++ post] (and the rc byte) yields the quantities of one iteration of
   ModelCipher.sched_loop (the [_step] lemmas), and the MANTIS segments compose to one iteration of
   SpecMantis.fwd / bwd.  Also the list-level facts about KernelSpecs2.splice (splice_mid, splice_app, ...). *)
From Coq Require Import List Bool Arith Lia.
From Skinny Require Import ListFacts Bits SpecSkinny SpecMantis Anf IRCheck KernelSpecs KernelHom ModelCipher
                           KernelSpecs2.
Import ListNotations.

Section StateHom2.
  Variables C1 C2 : Type.
  Variable g : C1 -> C2.
  Notation sm := (smapS C1 C2 g).
  Notation hmS := (hmapS C1 C2 g).

  Lemma hmapS_rows01 : forall s, hmS (rows01 C1 s) = rows01 C2 (sm s).
  Proof. intros s. d4 s. reflexivity. Qed.
  Lemma smapS_lfsr_rows01 : forall f1 f2, (forall x, g (f1 x) = f2 (g x)) ->
    forall s, sm (lfsr_rows01 C1 f1 s) = lfsr_rows01 C2 f2 (sm s).
  Proof. intros f1 f2 H s. dstate s. repeat apply (f_equal2 pair); auto. Qed.
  Lemma smapS_next_tk1 : forall s, sm (next_tk1 C1 s) = next_tk1 C2 (sm s).
  Proof. intros s. unfold next_tk1. apply smapS_permute_tk. Qed.
  (* also for next_tk3, which is the same function of its LFSR argument *)
  Lemma smapS_next_tk2 : forall f1 f2, (forall x, g (f1 x) = f2 (g x)) ->
    forall s, sm (next_tk2 C1 f1 s) = next_tk2 C2 f2 (sm s).
  Proof. intros f1 f2 H s. unfold next_tk2. rewrite <- smapS_permute_tk. apply smapS_lfsr_rows01, H. Qed.
End StateHom2.

(* What set_tk1 stores into the slot, from rows 0-1 [k] of tk and the bits [r] of the new round constant, for
   any cell type: [lo] embeds the 4-bit constants c0, c1 into a cell, [two] is the constant of tweakable
   schedules.  KernelSpecs2.k128_tk1_body / k64_tk1_body are this at the two cell types. *)
Section Tk1Slot.
  Variables (B : Type) (b0 : B) (C : Type) (cx : C -> C -> C) (lo : c4 B -> C) (two : C).
  Definition tk1_slot (tweaked : bool) (r : list B) (k : row C * row C) : row C * row C :=
    let g i := nth i r b0 in
    let '(t0, t1) := k in let '(a0, a1, a2, a3) := t0 in let '(d0, d1, d2, d3) := t1 in
    ((cx a0 (lo (g 3, g 2, g 1, g 0)), a1, (if tweaked then cx a2 two else a2), a3),
     (cx d0 (lo (b0, b0, g 5, g 4)), d1, d2, d3)).
End Tk1Slot.

Section Tk1Body.
  Variable B : Type.
  Variables (bx : B -> B -> B) (b0 b1 : B).

  Lemma k128_tk1_body_slot : forall tweaked m,
    k128_tk1_body B bx b0 b1 tweaked m =
    let tk := state128_of_reg B b0 (reg B m 0) in
    let r := rc_next_bits B bx b0 b1 (nth 0 (reg B m 2) []) in
    [reg_of_state128 B (next_tk1 (c8 B) tk);
     splice B (reg B m 1) 8
       (KernelSpecs2.half_bytes128 B
          (tk1_slot B b0 (c8 B) (cx8 B bx) (c8join (c4zero B b0)) (nib8 B b0 b1 false false true false)
             tweaked r (rows01 (c8 B) tk)));
     [r]].
  Proof.
    intros tweaked m. unfold k128_tk1_body. cbv zeta.
    destruct (state128_of_reg B b0 (reg B m 0)) as [[[t0 t1] ?] ?]. d4 t0. d4 t1. reflexivity.
  Qed.
  Lemma k64_tk1_body_slot : forall tweaked m,
    k64_tk1_body B bx b0 b1 tweaked m =
    let tk := state64_of_reg B b0 (reg B m 0) in
    let r := rc_next_bits B bx b0 b1 (nth 0 (reg B m 2) []) in
    [reg_of_state64 B (next_tk1 (c4 B) tk);
     splice B (reg B m 1) 4
       (KernelSpecs2.half_bytes64 B
          (tk1_slot B b0 (c4 B) (cx4 B bx) (fun x => x) (nib4 B b0 b1 false false true false)
             tweaked r (rows01 (c4 B) tk)));
     [r]].
  Proof.
    intros tweaked m. unfold k64_tk1_body. cbv zeta.
    destruct (state64_of_reg B b0 (reg B m 0)) as [[[t0 t1] ?] ?]. d4 t0. d4 t1. reflexivity.
  Qed.
End Tk1Body.

Section CarrierHom2.
  Variables B1 B2 : Type.
  Variables (bx1 ba1 : B1 -> B1 -> B1) (z1 o1 : B1).
  Variables (bx2 ba2 : B2 -> B2 -> B2) (z2 o2 : B2).
  Variable h : B1 -> B2.
  Hypothesis h_bx : forall a b, h (bx1 a b) = bx2 (h a) (h b).
  Hypothesis h_ba : forall a b, h (ba1 a b) = ba2 (h a) (h b).
  Hypothesis h_z : h z1 = z2.
  Hypothesis h_o : h o1 = o2.

  Notation hb := (map (map h)).
  Notation hm := (map (map (map h))).
  Notation H8 := (h8 B1 B2 h).
  Notation H4 := (h4 B1 B2 h).
  Notation sm8 := (smapS (c8 B1) (c8 B2) (h8 B1 B2 h)).
  Notation sm4 := (smapS (c4 B1) (c4 B2) (h4 B1 B2 h)).
  Notation hm8 := (hmapS (c8 B1) (c8 B2) (h8 B1 B2 h)).
  Notation hm4 := (hmapS (c4 B1) (c4 B2) (h4 B1 B2 h)).

  Let Hcx8 := h8_cx8 B1 B2 bx1 bx2 h h_bx.
  Let Hcx4 := h4_cx4 B1 B2 bx1 bx2 h h_bx.
  Let Hst128 := state128_of_reg_homG B1 B2 z1 z2 h h_z.
  Let Hst64 := state64_of_reg_homG B1 B2 z1 z2 h h_z.
  Let Hhalf128 := half128_of_reg_homG B1 B2 z1 z2 h h_z.
  Let Hhalf64 := half64_of_reg_homG B1 B2 z1 z2 h h_z.
  Let Hnthz := nth_map_z B1 B2 z1 z2 h h_z.

  Lemma hb_splice : forall bytes off new,
    hb (splice B1 bytes off new) = splice B2 (hb bytes) off (hb new).
  Proof.
    intros bytes off new. unfold splice. rewrite !map_app, map_length, firstn_map, skipn_map. reflexivity.
  Qed.
  Lemma half_bytes128_homG : forall k,
    hb (KernelSpecs2.half_bytes128 B1 k) = KernelSpecs2.half_bytes128 B2 (hm8 k).
  Proof.
    intros [k0 k1]. d4 k0. d4 k1.
    cbv [KernelSpecs2.half_bytes128 hmapS rmapS fst snd row_list app map].
    rewrite <- !map_bits_of_c8. reflexivity.
  Qed.
  Lemma half_bytes64_homG : forall k,
    hb (KernelSpecs2.half_bytes64 B1 k) = KernelSpecs2.half_bytes64 B2 (hm4 k).
  Proof.
    intros [k0 k1]. d4 k0. d4 k1.
    cbv [KernelSpecs2.half_bytes64 hmapS rmapS fst snd row_bytes64 app map].
    rewrite <- !h8_c8join, <- !map_bits_of_c8. reflexivity.
  Qed.
  Lemma hxor8_homG : forall a b, hm8 (hxor8 B1 bx1 a b) = hxor8 B2 bx2 (hm8 a) (hm8 b).
  Proof. intros a b. apply (f_equal2 pair); apply (rmapS_rx _ _ _ _ _ Hcx8). Qed.
  Lemma hxor4_homG : forall a b, hm4 (hxor4 B1 bx1 a b) = hxor4 B2 bx2 (hm4 a) (hm4 b).
  Proof. intros a b. apply (f_equal2 pair); apply (rmapS_rx _ _ _ _ _ Hcx4). Qed.

  Lemma k128_xor_body_homG : forall n1 n2, (forall s, sm8 (n1 s) = n2 (sm8 s)) ->
    forall m, hm (k128_xor_body B1 bx1 z1 n1 m) = k128_xor_body B2 bx2 z2 n2 (hm m).
  Proof.
    intros n1 n2 Hn m. unfold k128_xor_body. cbv zeta. cbn [map].
    rewrite !reg_homG, hb_splice, half_bytes128_homG, hxor8_homG, hmapS_rows01, reg_of_state128_homG, Hn.
    rewrite Hst128, skipn_map, Hhalf128. reflexivity.
  Qed.
  Lemma k64_xor_body_homG : forall n1 n2, (forall s, sm4 (n1 s) = n2 (sm4 s)) ->
    forall m, hm (k64_xor_body B1 bx1 z1 n1 m) = k64_xor_body B2 bx2 z2 n2 (hm m).
  Proof.
    intros n1 n2 Hn m. unfold k64_xor_body. cbv zeta. cbn [map].
    rewrite !reg_homG, hb_splice, half_bytes64_homG, hxor4_homG, hmapS_rows01, reg_of_state64_homG, Hn.
    rewrite Hst64, skipn_map, Hhalf64. reflexivity.
  Qed.

  Lemma k128_xor_tk1_body_homG : forall m,
    hm (k128_xor_tk1_body B1 bx1 z1 m) = k128_xor_tk1_body B2 bx2 z2 (hm m).
  Proof. apply k128_xor_body_homG. apply smapS_next_tk1. Qed.
  Lemma k128_tk2_body_homG : forall m,
    hm (k128_tk2_body B1 bx1 z1 m) = k128_tk2_body B2 bx2 z2 (hm m).
  Proof. apply k128_xor_body_homG. apply smapS_next_tk2. exact (h8_lfsr2 B1 B2 bx1 bx2 h h_bx). Qed.
  Lemma k128_tk3_body_homG : forall m,
    hm (k128_tk3_body B1 bx1 z1 m) = k128_tk3_body B2 bx2 z2 (hm m).
  Proof. apply k128_xor_body_homG. apply smapS_next_tk2. exact (h8_lfsr3 B1 B2 bx1 bx2 h h_bx). Qed.
  Lemma k64_xor_tk1_body_homG : forall m,
    hm (k64_xor_tk1_body B1 bx1 z1 m) = k64_xor_tk1_body B2 bx2 z2 (hm m).
  Proof. apply k64_xor_body_homG. apply smapS_next_tk1. Qed.
  Lemma k64_tk2_body_homG : forall m,
    hm (k64_tk2_body B1 bx1 z1 m) = k64_tk2_body B2 bx2 z2 (hm m).
  Proof. apply k64_xor_body_homG. apply smapS_next_tk2. exact (h4_lfsr2 B1 B2 bx1 bx2 h h_bx). Qed.
  Lemma k64_tk3_body_homG : forall m,
    hm (k64_tk3_body B1 bx1 z1 m) = k64_tk3_body B2 bx2 z2 (hm m).
  Proof. apply k64_xor_body_homG. apply smapS_next_tk2. exact (h4_lfsr3 B1 B2 bx1 bx2 h h_bx). Qed.

  Lemma rc_next_bits_homG : forall l,
    map h (rc_next_bits B1 bx1 z1 o1 l) = rc_next_bits B2 bx2 z2 o2 (map h l).
  Proof.
    intros l. unfold rc_next_bits. cbn [map]. rewrite !Hnthz, !h_bx, h_o, !h_z. reflexivity.
  Qed.

  Lemma tk1_slot_homG : forall C1 C2 (g : C1 -> C2) cx1 cx2 lo1 lo2 two1 two2,
    (forall a b, g (cx1 a b) = cx2 (g a) (g b)) -> (forall x, g (lo1 x) = lo2 (H4 x)) -> g two1 = two2 ->
    forall tweaked r k,
    hmapS C1 C2 g (tk1_slot B1 z1 C1 cx1 lo1 two1 tweaked r k) =
    tk1_slot B2 z2 C2 cx2 lo2 two2 tweaked (map h r) (hmapS C1 C2 g k).
  Proof.
    intros C1 C2 g cx1 cx2 lo1 lo2 two1 two2 Hcx Hlo Htwo tweaked r [k0 k1]. d4 k0. d4 k1.
    cbv [tk1_slot hmapS rmapS fst snd]. rewrite !Hcx, !Hlo. cbn [h4]. rewrite !Hnthz, !h_z.
    destruct tweaked; [rewrite Hcx, Htwo|]; reflexivity.
  Qed.

  Lemma k128_tk1_body_homG : forall tweaked m,
    hm (k128_tk1_body B1 bx1 z1 o1 tweaked m) = k128_tk1_body B2 bx2 z2 o2 tweaked (hm m).
  Proof.
    intros tweaked m. rewrite !k128_tk1_body_slot. cbv zeta. cbn [map].
    rewrite !reg_homG, (nth_loc_hom B1 B2 h), <- rc_next_bits_homG, <- Hst128, <- hmapS_rows01.
    rewrite hb_splice, half_bytes128_homG, reg_of_state128_homG, smapS_next_tk1.
    rewrite (tk1_slot_homG _ _ H8 _ (cx8 B2 bx2) _ (c8join (c4zero B2 z2)) _ (nib8 B2 z2 o2 false false true false) Hcx8).
    - reflexivity.
    - intros x. rewrite h8_c8join. cbv [h4 c4zero]. rewrite !h_z. reflexivity.
    - exact (h8_c8nib B1 B2 z1 o1 z2 o2 h h_z h_o false false true false).
  Qed.

  Lemma k64_tk1_body_homG : forall tweaked m,
    hm (k64_tk1_body B1 bx1 z1 o1 tweaked m) = k64_tk1_body B2 bx2 z2 o2 tweaked (hm m).
  Proof.
    intros tweaked m. rewrite !k64_tk1_body_slot. cbv zeta. cbn [map].
    rewrite !reg_homG, (nth_loc_hom B1 B2 h), <- rc_next_bits_homG, <- Hst64, <- hmapS_rows01.
    rewrite hb_splice, half_bytes64_homG, reg_of_state64_homG, smapS_next_tk1.
    rewrite (tk1_slot_homG _ _ H4 _ (cx4 B2 bx2) _ (fun x => x) _ (nib4 B2 z2 o2 false false true false) Hcx4).
    - reflexivity.
    - reflexivity.
    - exact (h4_c4nib B1 B2 z1 o1 z2 o2 h h_z h_o false false true false).
  Qed.

  Lemma km_h_homG : forall m, hm (km_h B1 z1 m) = km_h B2 z2 (hm m).
  Proof.
    intros m. unfold km_h, mk4. cbn [map].
    rewrite !reg_homG, reg_of_state64_homG, smapS_h_perm, Hst64. reflexivity.
  Qed.
  Lemma km_h_inv_homG : forall m, hm (km_h_inv B1 z1 m) = km_h_inv B2 z2 (hm m).
  Proof.
    intros m. unfold km_h_inv, mk4. cbn [map].
    rewrite !reg_homG, reg_of_state64_homG, smapS_h_perm_inv, Hst64. reflexivity.
  Qed.
  Lemma km_sub_homG : forall m, hm (km_sub B1 bx1 ba1 z1 o1 m) = km_sub B2 bx2 ba2 z2 o2 (hm m).
  Proof.
    intros m. unfold km_sub, mk4. cbn [map].
    rewrite !reg_homG, reg_of_state64_homG.
    rewrite (smapS_smap _ _ H4 (Sb0_ B1 bx1 ba1 o1) (Sb0_ B2 bx2 ba2 o2)
               (h4_Sb0 B1 B2 bx1 ba1 o1 bx2 ba2 o2 h h_bx h_ba h_o)).
    rewrite Hst64. reflexivity.
  Qed.
  Lemma km_fwd_linear_homG : forall m, hm (km_fwd_linear B1 bx1 z1 m) = km_fwd_linear B2 bx2 z2 (hm m).
  Proof.
    intros m. unfold km_fwd_linear, mk4. cbn [map].
    rewrite !reg_homG, reg_of_state64_homG.
    rewrite (smapS_mix _ _ H4 _ _ Hcx4), smapS_permute_cells, !(smapS_sx _ _ H4 _ _ Hcx4), !Hst64.
    reflexivity.
  Qed.
  Lemma km_bwd_linear_homG : forall m, hm (km_bwd_linear B1 bx1 z1 m) = km_bwd_linear B2 bx2 z2 (hm m).
  Proof.
    intros m. unfold km_bwd_linear, mk4. cbn [map].
    rewrite !reg_homG, reg_of_state64_homG.
    rewrite !(smapS_sx _ _ H4 _ _ Hcx4), smapS_permute_cells_inv, (smapS_mix _ _ H4 _ _ Hcx4), !Hst64.
    reflexivity.
  Qed.
End CarrierHom2.

Lemma k128_xor_tk1_body_hom : forall sizes,
  spec_hom sizes (k128_xor_tk1_body poly pxor pzero) (k128_xor_tk1_body bool xorb false).
Proof. hom_by k128_xor_tk1_body_homG. Qed.
Lemma k128_tk2_body_hom : forall sizes,
  spec_hom sizes (k128_tk2_body poly pxor pzero) (k128_tk2_body bool xorb false).
Proof. hom_by k128_tk2_body_homG. Qed.
Lemma k128_tk3_body_hom : forall sizes,
  spec_hom sizes (k128_tk3_body poly pxor pzero) (k128_tk3_body bool xorb false).
Proof. hom_by k128_tk3_body_homG. Qed.
Lemma k64_xor_tk1_body_hom : forall sizes,
  spec_hom sizes (k64_xor_tk1_body poly pxor pzero) (k64_xor_tk1_body bool xorb false).
Proof. hom_by k64_xor_tk1_body_homG. Qed.
Lemma k64_tk2_body_hom : forall sizes,
  spec_hom sizes (k64_tk2_body poly pxor pzero) (k64_tk2_body bool xorb false).
Proof. hom_by k64_tk2_body_homG. Qed.
Lemma k64_tk3_body_hom : forall sizes,
  spec_hom sizes (k64_tk3_body poly pxor pzero) (k64_tk3_body bool xorb false).
Proof. hom_by k64_tk3_body_homG. Qed.
Lemma k128_tk1_body_hom : forall tweaked sizes,
  spec_hom sizes (k128_tk1_body poly pxor pzero pone tweaked) (k128_tk1_body bool xorb false true tweaked).
Proof. intros tweaked. hom_by k128_tk1_body_homG. Qed.
Lemma k64_tk1_body_hom : forall tweaked sizes,
  spec_hom sizes (k64_tk1_body poly pxor pzero pone tweaked) (k64_tk1_body bool xorb false true tweaked).
Proof. intros tweaked. hom_by k64_tk1_body_homG. Qed.
Lemma km_h_hom : forall sizes, spec_hom sizes (km_h poly pzero) (km_h bool false).
Proof. hom_by km_h_homG. Qed.
Lemma km_h_inv_hom : forall sizes, spec_hom sizes (km_h_inv poly pzero) (km_h_inv bool false).
Proof. hom_by km_h_inv_homG. Qed.
Lemma km_sub_hom : forall sizes,
  spec_hom sizes (km_sub poly pxor pand pzero pone) (km_sub bool xorb andb false true).
Proof. hom_by km_sub_homG. Qed.
Lemma km_fwd_linear_hom : forall sizes,
  spec_hom sizes (km_fwd_linear poly pxor pzero) (km_fwd_linear bool xorb false).
Proof. hom_by km_fwd_linear_homG. Qed.
Lemma km_bwd_linear_hom : forall sizes,
  spec_hom sizes (km_bwd_linear poly pxor pzero) (km_bwd_linear bool xorb false).
Proof. hom_by km_bwd_linear_homG. Qed.

Definition rc_of_bits (l : list bool) : rc6 :=
  (nth 5 l false, nth 4 l false, nth 3 l false, nth 2 l false, nth 1 l false, nth 0 l false).
Definition bits_of_rc (r : rc6) : list bool :=
  let '(r5, r4, r3, r2, r1, r0) := r in [r0; r1; r2; r3; r4; r5; false; false].

Lemma rc_of_bits_of_rc : forall r, rc_of_bits (bits_of_rc r) = r.
Proof. intros [[[[[r5 r4] r3] r2] r1] r0]. reflexivity. Qed.

Lemma rc_next_bits_spec : forall r : rc6,
  rc_next_bits bool xorb false true (bits_of_rc r) = bits_of_rc (rc_next r).
Proof.
  intros [[[[[r5 r4] r3] r2] r1] r0]. cbv [rc_next_bits bits_of_rc rc_next nth].
  rewrite xorb_true_r. reflexivity.
Qed.

Section Slots.
  Variable B : Type.
  Variables (bx : B -> B -> B) (b0 : B).

  (* replacing the slot of a region [pre ++ old ++ post] *)
  Lemma splice_mid : forall (pre old post new : list (list B)) off,
    length pre = off -> length old = length new ->
    splice B (pre ++ old ++ post) off new = pre ++ new ++ post.
  Proof.
    intros pre old post new off Hpre Hlen. unfold splice.
    rewrite (firstn_app_exact pre _ off Hpre), skipn_add, (skipn_app_exact pre _ off Hpre).
    rewrite (skipn_app_exact old post _ Hlen). reflexivity.
  Qed.

  Lemma half_bytes128_length : forall k, length (KernelSpecs2.half_bytes128 B k) = 8.
  Proof. intros [k0 k1]. d4 k0. d4 k1. reflexivity. Qed.
  Lemma half_bytes64_length : forall k, length (KernelSpecs2.half_bytes64 B k) = 4.
  Proof. intros [k0 k1]. d4 k0. d4 k1. reflexivity. Qed.
  Lemma half128_of_reg_half_bytes128 : forall k post,
    half128_of_reg B b0 (KernelSpecs2.half_bytes128 B k ++ post) = k.
  Proof.
    intros [k0 k1] post. d4 k0. d4 k1.
    cbv [half128_of_reg KernelSpecs2.half_bytes128 fst snd row_list app map nth].
    rewrite !c8_of_bits_of_c8. reflexivity.
  Qed.
  Lemma half64_of_reg_half_bytes64 : forall k post,
    half64_of_reg B b0 (KernelSpecs2.half_bytes64 B k ++ post) = k.
  Proof.
    intros [k0 k1] post. d4 k0. d4 k1.
    cbv [half64_of_reg KernelSpecs2.half_bytes64 fst snd row_bytes64 app map nth].
    rewrite !c8_of_bits_of_c8, !c8hi_join, !c8lo_join. reflexivity.
  Qed.

  Lemma k128_xor_body_step : forall next tk slot pre post, length pre = 8 ->
    k128_xor_body B bx b0 next [reg_of_state128 B tk; pre ++ KernelSpecs2.half_bytes128 B slot ++ post]
    = [reg_of_state128 B (next tk);
       pre ++ KernelSpecs2.half_bytes128 B (hxor8 B bx slot (rows01 (c8 B) tk)) ++ post].
  Proof.
    intros next tk slot pre post Hpre. unfold k128_xor_body. cbv zeta.
    cbn [reg nth]. rewrite state128_of_reg_of_state128, (skipn_app_exact pre _ 8 Hpre).
    rewrite half128_of_reg_half_bytes128, (splice_mid pre _ post _ 8 Hpre); [reflexivity|].
    rewrite !half_bytes128_length. reflexivity.
  Qed.
  Lemma k64_xor_body_step : forall next tk slot pre post, length pre = 4 ->
    k64_xor_body B bx b0 next [reg_of_state64 B tk; pre ++ KernelSpecs2.half_bytes64 B slot ++ post]
    = [reg_of_state64 B (next tk);
       pre ++ KernelSpecs2.half_bytes64 B (hxor4 B bx slot (rows01 (c4 B) tk)) ++ post].
  Proof.
    intros next tk slot pre post Hpre. unfold k64_xor_body. cbv zeta.
    cbn [reg nth]. rewrite state64_of_reg_of_state64, (skipn_app_exact pre _ 4 Hpre).
    rewrite half64_of_reg_half_bytes64, (splice_mid pre _ post _ 4 Hpre); [reflexivity|].
    rewrite !half_bytes64_length. reflexivity.
  Qed.
End Slots.

Lemma splice_length : forall {B} (l new : list (list B)) pos, pos + length new <= length l ->
  length (splice B l pos new) = length l.
Proof.
  intros B l new pos H. unfold splice. rewrite !app_length, firstn_length, skipn_length. lia.
Qed.
Lemma splice_nil : forall {B} (l : list (list B)) pos, splice B l pos [] = l.
Proof. intros B l pos. unfold splice. cbn [app length]. rewrite Nat.add_0_r. apply firstn_skipn. Qed.
Lemma splice_whole : forall {B} (l new : list (list B)), length new = length l -> splice B l 0 new = new.
Proof. intros B l new H. unfold splice. cbn [firstn app plus]. rewrite H, skipn_all. apply app_nil_r. Qed.

Lemma splice_app : forall {B} (l a b : list (list B)) pos, pos + length a + length b <= length l ->
  splice B l pos (a ++ b) = splice B (splice B l pos a) (pos + length a) b.
Proof.
  intros B l a b pos H. unfold splice at 1 3.
  rewrite <- (firstn_skipn (length b) (skipn (pos + length a) l)), (app_assoc (firstn pos l) a), splice_mid
    by (rewrite ?app_length, firstn_length, ?skipn_length; lia).
  rewrite <- skipn_add, app_length, <- !app_assoc, Nat.add_assoc. reflexivity.
Qed.

Lemma bconst_bool : forall b, bconst bool false true b = b.
Proof. intros []; reflexivity. Qed.

(* on bool, with the public constants of ModelCipher: the slot is rows 0-1 xored with the model's constants *)
Lemma tk1_slot_spec : forall (C : Type) (cx : C -> C -> C) (cnib : bool -> bool -> bool -> bool -> C) czero lo,
  (forall a, cx a czero = a) -> (forall x3 x2 x1 x0, lo (x3, x2, x1, x0) = cnib x3 x2 x1 x0) ->
  forall tweaked r k,
  tk1_slot bool false C cx lo (cnib false false true false) tweaked (bits_of_rc r) k =
  hxor C cx k (const_half C cnib czero tweaked r).
Proof.
  intros C cx cnib czero lo Hz Hlo tweaked [[[[[r5 r4] r3] r2] r1] r0] [k0 k1]. d4 k0. d4 k1.
  cbv [tk1_slot hxor const_half rx fst snd bits_of_rc nth]. rewrite !Hz, !Hlo.
  destruct tweaked; [|rewrite Hz]; reflexivity.
Qed.

Lemma k128_tk1_body_step : forall tweaked tk slot pre post r, length pre = 8 ->
  k128_tk1_body bool xorb false true tweaked
    [reg_of_state128 bool tk; pre ++ KernelSpecs2.half_bytes128 bool slot ++ post; [bits_of_rc r]]
  = [reg_of_state128 bool (next_tk1 byte tk);
     pre ++ KernelSpecs2.half_bytes128 bool
              (hxor byte bxor8 (rows01 byte tk) (const_half byte cnib8 byte0 tweaked (rc_next r))) ++ post;
     [bits_of_rc (rc_next r)]].
Proof.
  intros tweaked tk slot pre post r Hpre. rewrite k128_tk1_body_slot. cbv zeta. cbn [reg nth].
  rewrite state128_of_reg_of_state128, rc_next_bits_spec.
  rewrite (splice_mid bool pre _ post _ 8 Hpre) by (rewrite !half_bytes128_length; reflexivity).
  rewrite (tk1_slot_spec byte bxor8 cnib8 byte0 _ bxor8_0_r); [reflexivity|].
  intros x3 x2 x1 x0. unfold c8nib. rewrite !bconst_bool. reflexivity.
Qed.

Lemma k64_tk1_body_step : forall tweaked tk slot pre post r, length pre = 4 ->
  k64_tk1_body bool xorb false true tweaked
    [reg_of_state64 bool tk; pre ++ KernelSpecs2.half_bytes64 bool slot ++ post; [bits_of_rc r]]
  = [reg_of_state64 bool (next_tk1 nib tk);
     pre ++ KernelSpecs2.half_bytes64 bool
              (hxor nib bxor4 (rows01 nib tk) (const_half nib cnib4 nib0 tweaked (rc_next r))) ++ post;
     [bits_of_rc (rc_next r)]].
Proof.
  intros tweaked tk slot pre post r Hpre. rewrite k64_tk1_body_slot. cbv zeta. cbn [reg nth].
  rewrite state64_of_reg_of_state64, rc_next_bits_spec.
  rewrite (splice_mid bool pre _ post _ 4 Hpre) by (rewrite !half_bytes64_length; reflexivity).
  rewrite (tk1_slot_spec nib bxor4 cnib4 nib0 _ bxor4_0_r); [reflexivity|].
  intros x3 x2 x1 x0. unfold c4nib. rewrite !bconst_bool. reflexivity.
Qed.

(* one iteration of ModelCipher's [sched_loop]; the [_step] lemmas above compute its three components
   [upd e (rows01 tk) (rc_next r)], [next tk] and [rc_next r] for the four [upd] / [next] of ModelCipher *)
Lemma sched_loop_step : forall C n upd next tk r e rest,
  sched_loop C (S n) upd next tk r (e :: rest)
  = upd e (rows01 C tk) (rc_next r) :: sched_loop C n upd next (next tk) (rc_next r) rest.
Proof. reflexivity. Qed.

(* the three MANTIS segments of a round compose to an explicit formula: each reads back the regions the
   previous one wrote *)
Lemma km_fwd_is_spec : forall T x rcs k,
  km_fwd_linear bool xorb false (km_sub bool xorb andb false true (km_h bool false
     [reg_of_state64 bool T; reg_of_state64 bool x; reg_of_state64 bool rcs; reg_of_state64 bool k]))
  = [reg_of_state64 bool (h_perm nib T);
     reg_of_state64 bool
       (mix nib bxor4 (permute_cells nib
          (sx nib bxor4 (sx nib bxor4 (smap nib (Sb0 bool xorb andb true) x) rcs)
                        (sx nib bxor4 k (h_perm nib T)))));
     reg_of_state64 bool rcs; reg_of_state64 bool k].
Proof.
  intros T x rcs k. unfold km_fwd_linear, km_sub, km_h, mk4. cbn [reg nth].
  rewrite !state64_of_reg_of_state64. reflexivity.
Qed.
Lemma km_bwd_is_spec : forall T x rcs k,
  km_h_inv bool false (km_sub bool xorb andb false true (km_bwd_linear bool xorb false
     [reg_of_state64 bool T; reg_of_state64 bool x; reg_of_state64 bool rcs; reg_of_state64 bool k]))
  = [reg_of_state64 bool (h_perm_inv nib T);
     reg_of_state64 bool
       (smap nib (Sb0 bool xorb andb true)
          (sx nib bxor4 (sx nib bxor4 (permute_cells_inv nib (mix nib bxor4 x)) (sx nib bxor4 k T)) rcs));
     reg_of_state64 bool rcs; reg_of_state64 bool k].
Proof.
  intros T x rcs k. unfold km_h_inv, km_sub, km_bwd_linear, mk4. cbn [reg nth].
  rewrite !state64_of_reg_of_state64. reflexivity.
Qed.

(* with the table entry equal to the specification's constant, the segments are one unfolding of fwd / bwd *)
Lemma km_fwd_is_fwd_step : forall rc rest k T x,
  fwd nib bxor4 cnib4 (Sb0 bool xorb andb true) (rc :: rest) k T x =
  let m' := km_fwd_linear bool xorb false (km_sub bool xorb andb false true (km_h bool false
              [reg_of_state64 bool T; reg_of_state64 bool x;
               reg_of_state64 bool (const_state nib cnib4 rc); reg_of_state64 bool k])) in
  fwd nib bxor4 cnib4 (Sb0 bool xorb andb true) rest k
      (state64_of_reg bool false (reg bool m' 0)) (state64_of_reg bool false (reg bool m' 1)).
Proof.
  intros rc rest k T x. cbv zeta. rewrite km_fwd_is_spec.
  change (reg bool [?a; ?b; ?c; ?d] 0) with a. change (reg bool [?a; ?b; ?c; ?d] 1) with b.
  rewrite !state64_of_reg_of_state64. reflexivity.
Qed.
Lemma km_bwd_is_bwd_step : forall rc rest k T x,
  bwd nib bxor4 cnib4 (Sb0 bool xorb andb true) (rc :: rest) k T x =
  let m' := km_h_inv bool false (km_sub bool xorb andb false true (km_bwd_linear bool xorb false
              [reg_of_state64 bool T; reg_of_state64 bool x;
               reg_of_state64 bool (const_state nib cnib4 rc); reg_of_state64 bool k])) in
  bwd nib bxor4 cnib4 (Sb0 bool xorb andb true) rest k
      (state64_of_reg bool false (reg bool m' 0)) (state64_of_reg bool false (reg bool m' 1)).
Proof.
  intros rc rest k T x. cbv zeta. rewrite km_bwd_is_spec.
  change (reg bool [?a; ?b; ?c; ?d] 0) with a. change (reg bool [?a; ?b; ?c; ?d] 1) with b.
  rewrite !state64_of_reg_of_state64. reflexivity.
Qed.

Print Assumptions k128_xor_tk1_body_hom.
Print Assumptions k128_tk2_body_hom.
Print Assumptions k128_tk3_body_hom.
Print Assumptions k64_xor_tk1_body_hom.
Print Assumptions k64_tk2_body_hom.
Print Assumptions k64_tk3_body_hom.
Print Assumptions k128_tk1_body_hom.
Print Assumptions k64_tk1_body_hom.
Print Assumptions km_h_hom.
Print Assumptions km_h_inv_hom.
Print Assumptions km_sub_hom.
Print Assumptions km_fwd_linear_hom.
Print Assumptions km_bwd_linear_hom.
Print Assumptions rc_next_bits_spec.
Print Assumptions k128_tk1_body_step.
Print Assumptions k64_tk1_body_step.
Print Assumptions km_fwd_is_spec.
Print Assumptions km_bwd_is_spec.
Print Assumptions km_fwd_is_fwd_step.
Print Assumptions km_bwd_is_bwd_step.
