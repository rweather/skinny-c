(* WholeCtr.v — the WHOLE generic CTR encryption function (skinny128_ctr_def_encrypt / skinny64_ctr_def_encrypt /
   mantis_ctr_def_encrypt of src/*-ctr.c) as translated into SIR.v with the block function kept as a PROCEDURE CALL
   (WholeProc.v), flattened at a public configuration (request size, buffered-key-stream offset), against a specification
   program that mirrors ModelCtr.crypt_loop: per loop iteration either
        refill:   ecounter := E(counter) [the procedure call]; counter := counter + 1 (big endian, byte-wise carries);
                  output[pos..] := input[pos..] xor ecounter[..]; offset field updated for a final partial block
        leftover: output[pos..] := input[pos..] xor ecounter[offset..]; offset := offset + n.
   Memory: 0 = output, 1 = input, 2 = the CTR object, 3 = the context (key schedule object at 0, counter at coff, ecounter at
   eoff, the public field offset at ooff). *)
From Coq Require Import List NArith Arith.
From Skinny Require Import IR SIR Anf IRCheck KernelSpecs KernelSpecs2 KernelHom KernelHom2 WholeSpecs SIRProofs
                           WholeProc.
Import ListNotations.

Section CtrSpec.
  Variable B : Type.
  Variables (bx ba : B -> B -> B) (b0 b1 : B).
  (* bs = block size; kn = size in bytes of the key schedule object, which lies at the start of the context and is passed
     whole to the call; coff, eoff, ooff = offsets of counter, ecounter, offset in the context; fno = number of the callee *)
  Variables (bs kn coff eoff ooff fno : nat).
  Notation reg := (reg B).
  Definition sub (l : list (list B)) (off n : nat) : list (list B) := firstn n (skipn off l).
  Definition xorB (a b : list (list B)) : list (list B) :=
    map (fun p => map2 B bx (fst p) (snd p)) (combine a b).
  Definition mk4m (o i c x : list (list B)) : mem B := [o; i; c; x].

  Definition s_xor (pos epos n : nat) (m : mem B) : mem B :=
    mk4m (splice B (reg m 0) pos (xorB (sub (reg m 1) pos n) (sub (reg m 3) epos n))) (reg m 1) (reg m 2) (reg m 3).
  Definition s_setoff (v : nat) (m : mem B) : mem B :=
    mk4m (reg m 0) (reg m 1) (reg m 2) (splice B (reg m 3) ooff (bytes_of B b0 4 (const_bits B b0 b1 32 (N.of_nat v)))).
  (* one byte of skinny*_inc_counter: inc += byte; byte := (uint8_t)inc; inc >>= 8.  inc is a uint16_t: the C addition is
     done after integer promotion, hence at 32 bits here, and the sum is cut back to 16 bits when it is assigned *)
  Definition inc_step (carry byte : list B) : list B * list B :=
    let s := take_pad B 16 b0 (add_bits B bx ba b0 (take_pad B 32 b0 carry) (take_pad B 32 b0 byte)) in
    (take_pad B 8 b0 s, take_pad B 16 b0 (skipn 8 s)).
  Fixpoint inc_rev_bits (l : list (list B)) (carry : list B) : list (list B) :=
    match l with
    | [] => []
    | b :: r => let '(b', c') := inc_step carry b in b' :: inc_rev_bits r c'
    end.
  Definition incB (c : list (list B)) : list (list B) := rev (inc_rev_bits (rev c) (const_bits B b0 b1 16 1)).
  Definition s_inc (m : mem B) : mem B :=
    mk4m (reg m 0) (reg m 1) (reg m 2) (splice B (reg m 3) coff (incB (sub (reg m 3) coff bs))).

  Definition pstmt : stmt := SStore 3 eoff bs (ECall fno (EConcat [ELoad 3 coff bs; ELoad 3 0 kn])).
  Definition ident (m : mem B) : mem B := m.

  (* the specification program, one entry per micro step; mirrors ModelCtr.crypt_loop at batch size 1 *)
  Fixpoint cmicro (fuel off size pos : nat) : list (entry B) :=
    match size with
    | O => []
    | S _ =>
      match fuel with
      | O => []
      | S f =>
        if Nat.leb bs off then
          (Some [pstmt], ident) :: (None, s_inc) ::
          (if Nat.leb bs size then (None, s_xor pos eoff bs) :: cmicro f off (size - bs) (pos + bs)
           else [(None, s_xor pos eoff size); (None, s_setoff size)])
        else
          let temp := Nat.min (bs - off) size in
          (None, s_xor pos (eoff + off) temp) :: (None, s_setoff (off + temp)) :: cmicro f (off + temp) (size - temp) (pos + temp)
      end
    end.

  (* consecutive specification steps are one run of the flattened code *)
  Fixpoint emerge_from (l : list (entry B)) (cur : entry B) : list (entry B) :=
    match l with
    | [] => [cur]
    | e :: l' =>
        match fst cur, fst e with
        | None, None => emerge_from l' (None, fun m => snd e (snd cur m))
        | _, _ => cur :: emerge_from l' e
        end
    end.
  Definition emerge (l : list (entry B)) : list (entry B) := match l with [] => [] | e :: l' => emerge_from l' e end.
  Definition cspec (off size : nat) : list (entry B) := emerge (cmicro (S size) off size 0).
End CtrSpec.

(* the loop of cmicro with the block size, the call statement and the steps after the call as parameters: the generic CTR
   function is (bs, pstmt, one counter increment), the SIMD ones (WholeCtrVec.v) are (L * bs, vstmt, one increment per lane) *)
Section GenSpec.
  Variable B : Type.
  Variables (bx : B -> B -> B) (b0 b1 : B).
  Variables (BSZ eoff ooff : nat) (call : stmt) (incs : list (entry B)).
  Fixpoint gmicro (fuel off size pos : nat) : list (entry B) :=
    match size with
    | O => []
    | S _ =>
      match fuel with
      | O => []
      | S f =>
        if Nat.leb BSZ off then
          (Some [call], ident B) :: incs ++
          (if Nat.leb BSZ size then (None, s_xor B bx pos eoff BSZ) :: gmicro f off (size - BSZ) (pos + BSZ)
           else [(None, s_xor B bx pos eoff size); (None, s_setoff B b0 b1 ooff size)])
        else
          let temp := Nat.min (BSZ - off) size in
          (None, s_xor B bx pos (eoff + off) temp) :: (None, s_setoff B b0 b1 ooff (off + temp))
          :: gmicro f (off + temp) (size - temp) (pos + temp)
      end
    end.
End GenSpec.

(* cmicro is gmicro at (bs, pstmt, one s_inc); the two fixpoints are convertible *)
Lemma cmicro_gmicro : forall B bx ba b0 b1 bs kn coff eoff ooff fno fuel off size pos,
  cmicro B bx ba b0 b1 bs kn coff eoff ooff fno fuel off size pos
  = gmicro B bx b0 b1 bs eoff ooff (pstmt bs kn coff eoff fno) [(None, s_inc B bx ba b0 b1 bs coff)] fuel off size pos.
Proof. reflexivity. Qed.

Lemma emerge_from_sem : forall cB l cur m,
  mixed_sem cB (emerge_from bool l cur) m = mixed_sem cB l (entry_sem cB cur m).
Proof.
  intros cB l. induction l as [|e l IH]; intros cur m; [reflexivity|].
  cbn [emerge_from]. destruct cur as [[a|] f]; destruct e as [[b|] g]; cbn [fst snd];
    rewrite ?mixed_sem_cons, IH, ?mixed_sem_cons; reflexivity.
Qed.
Lemma emerge_sem : forall cB l m, mixed_sem cB (emerge bool l) m = mixed_sem cB l m.
Proof. intros cB [|e l] m; [reflexivity|]. unfold emerge. rewrite emerge_from_sem. reflexivity. Qed.

Section CtrHom.
  Variables B1 B2 : Type.
  Variables (bx1 ba1 : B1 -> B1 -> B1) (z1 o1 : B1).
  Variables (bx2 ba2 : B2 -> B2 -> B2) (z2 o2 : B2).
  Variable h : B1 -> B2.
  Hypothesis h_bx : forall a b, h (bx1 a b) = bx2 (h a) (h b).
  Hypothesis h_ba : forall a b, h (ba1 a b) = ba2 (h a) (h b).
  Hypothesis h_z : h z1 = z2.
  Hypothesis h_o : h o1 = o2.
  Notation hb := (map (map h)).
  Notation hm := (map (map (map h))).
  Let Hreg := reg_homG B1 B2 h.

  Lemma sub_homG : forall l off n, hb (sub B1 l off n) = sub B2 (hb l) off n.
  Proof. intros. unfold sub. rewrite skipn_map, firstn_map. reflexivity. Qed.
  Lemma xorB_homG : forall a b, hb (xorB B1 bx1 a b) = xorB B2 bx2 (hb a) (hb b).
  Proof.
    induction a as [|x a IH]; intros [|y b]; try reflexivity.
    unfold xorB in *. cbn [combine map fst snd]. rewrite IH. f_equal.
    apply (map2_hom B1 B2 h bx1 bx2 h_bx).
  Qed.
  Lemma inc_step_homG : forall c b,
    (map h (fst (inc_step B1 bx1 ba1 z1 c b)), map h (snd (inc_step B1 bx1 ba1 z1 c b)))
    = inc_step B2 bx2 ba2 z2 (map h c) (map h b).
  Proof.
    intros c b. unfold inc_step. cbv zeta. cbn [fst snd].
    rewrite !(take_pad_hom B1 B2 h). rewrite <- skipn_map.
    rewrite !(take_pad_hom B1 B2 h), (add_bits_hom B1 B2 bx1 ba1 bx2 ba2 h h_bx h_ba), !(take_pad_hom B1 B2 h), !h_z. reflexivity.
  Qed.
  Lemma inc_rev_bits_homG : forall l c,
    hb (inc_rev_bits B1 bx1 ba1 z1 l c) = inc_rev_bits B2 bx2 ba2 z2 (hb l) (map h c).
  Proof.
    induction l as [|b l IH]; intros c; [reflexivity|].
    cbn [inc_rev_bits map]. rewrite <- inc_step_homG. destruct (inc_step B1 bx1 ba1 z1 c b) as [b' c'].
    cbn [fst snd map]. rewrite IH. reflexivity.
  Qed.
  (* the increment by k of a big-endian counter: incB is k = 1, WholeCtrVec.incK any k *)
  Lemma inc_bits_homG : forall k c,
    hb (rev (inc_rev_bits B1 bx1 ba1 z1 (rev c) (const_bits B1 z1 o1 16 k)))
    = rev (inc_rev_bits B2 bx2 ba2 z2 (rev (hb c)) (const_bits B2 z2 o2 16 k)).
  Proof.
    intros k c. rewrite map_rev, inc_rev_bits_homG, map_rev, (const_bits_hom B1 B2 z1 o1 z2 o2 h h_z h_o). reflexivity.
  Qed.
  Lemma incB_homG : forall c, hb (incB B1 bx1 ba1 z1 o1 c) = incB B2 bx2 ba2 z2 o2 (hb c).
  Proof. exact (inc_bits_homG 1). Qed.

  Lemma s_xor_homG : forall pos epos n m, hm (s_xor B1 bx1 pos epos n m) = s_xor B2 bx2 pos epos n (hm m).
  Proof.
    intros. unfold s_xor, mk4m. cbn [map]. rewrite !Hreg, hb_splice, xorB_homG, !sub_homG. reflexivity.
  Qed.
  Lemma s_setoff_homG : forall ooff v m, hm (s_setoff B1 z1 o1 ooff v m) = s_setoff B2 z2 o2 ooff v (hm m).
  Proof.
    intros. unfold s_setoff, mk4m. cbn [map]. rewrite !Hreg, hb_splice.
    rewrite (bytes_of_hom B1 B2 z1 z2 h h_z), (const_bits_hom B1 B2 z1 o1 z2 o2 h h_z h_o). reflexivity.
  Qed.
  Lemma s_inc_homG : forall bs coff m, hm (s_inc B1 bx1 ba1 z1 o1 bs coff m) = s_inc B2 bx2 ba2 z2 o2 bs coff (hm m).
  Proof.
    intros. unfold s_inc, mk4m. cbn [map]. rewrite !Hreg, hb_splice, incB_homG, sub_homG. reflexivity.
  Qed.
End CtrHom.

Lemma s_xor_homU : forall pos epos n, homU (s_xor poly pxor pos epos n) (s_xor bool xorb pos epos n).
Proof. intros. homU_by s_xor_homG. Qed.
Lemma s_setoff_homU : forall ooff v, homU (s_setoff poly pzero pone ooff v) (s_setoff bool false true ooff v).
Proof. intros. homU_by s_setoff_homG. Qed.
Lemma s_inc_homU : forall bs coff, homU (s_inc poly pxor pand pzero pone bs coff) (s_inc bool xorb andb false true bs coff).
Proof. intros. homU_by s_inc_homG. Qed.
Lemma ident_homU : homU (ident poly) (ident bool).
Proof. intros rho m. reflexivity. Qed.

Notation cmicroP := (cmicro poly pxor pand pzero pone).
Notation cmicroB := (cmicro bool xorb andb false true).

Definition entry_homU (a : entry poly) (b : entry bool) : Prop := fst a = fst b /\ homU (snd a) (snd b).
Lemma entry_homU_hom : forall sizes lP lB, Forall2 entry_homU lP lB -> Forall2 (entry_hom sizes) lP lB.
Proof.
  intros sizes lP lB H. induction H as [|a b lP lB [H1 H2] _ IH]; constructor; [|exact IH].
  split; [exact H1 | intros _; apply homU_spec_hom; exact H2].
Qed.

Lemma entry_homU_same : forall o fP fB, homU fP fB -> entry_homU (o, fP) (o, fB).
Proof. intros o fP fB H. split; [reflexivity | exact H]. Qed.
#[export] Hint Resolve entry_homU_same s_xor_homU s_setoff_homU s_inc_homU ident_homU : homU.

Lemma gmicro_hom : forall BSZ eoff ooff call incsP incsB, Forall2 entry_homU incsP incsB -> forall fuel off size pos,
  Forall2 entry_homU (gmicro poly pxor pzero pone BSZ eoff ooff call incsP fuel off size pos)
                     (gmicro bool xorb false true BSZ eoff ooff call incsB fuel off size pos).
Proof.
  intros BSZ eoff ooff call incsP incsB Hincs.
  induction fuel as [|f IH]; intros off [|sz] pos; try constructor. cbn [gmicro].
  destruct (Nat.leb BSZ off); [|auto with homU].
  constructor; [auto with homU|]. apply Forall2_app; [exact Hincs|]. destruct (Nat.leb BSZ (S sz)); auto with homU.
Qed.
Lemma cmicro_hom : forall bs kn coff eoff ooff fno fuel off size pos,
  Forall2 entry_homU (cmicroP bs kn coff eoff ooff fno fuel off size pos) (cmicroB bs kn coff eoff ooff fno fuel off size pos).
Proof. intros. rewrite !cmicro_gmicro. apply gmicro_hom. auto with homU. Qed.

Lemma emerge_from_hom : forall lP lB, Forall2 entry_homU lP lB -> forall curP curB, entry_homU curP curB ->
  Forall2 entry_homU (emerge_from poly lP curP) (emerge_from bool lB curB).
Proof.
  intros lP lB H. induction H as [|[oa fa] [ob fb] lP lB [H1 H2] _ IH]; intros [oc fc] [oc' fc'] [K1 K2];
    cbn [emerge_from fst snd] in *; subst; [auto with homU|].
  destruct oc', ob; auto with homU.
  (* two steps without a call between them are one step *)
  apply IH, entry_homU_same, (homU_compose fc fc' fa fb K2 H2).
Qed.
Lemma emerge_hom : forall lP lB, Forall2 entry_homU lP lB -> Forall2 entry_homU (emerge poly lP) (emerge bool lB).
Proof. intros lP lB [|a b lP' lB' Hab Hl]; [constructor | apply emerge_from_hom; assumption]. Qed.
Theorem cspec_hom : forall sizes bs kn coff eoff ooff fno off size,
  Forall2 (entry_hom sizes) (cspec poly pxor pand pzero pone bs kn coff eoff ooff fno off size)
                            (cspec bool xorb andb false true bs kn coff eoff ooff fno off size).
Proof. intros. apply entry_homU_hom, emerge_hom, cmicro_hom. Qed.
Print Assumptions cspec_hom.

(* proc_final for the generic CTR function: the checked specification is cspec (merged steps), its meaning that of cmicro *)
Theorem pctr_final : forall fields code fuel pl sh pl' sh' c t sizes bs kn coff eoff ooff fno off size,
  fields_okb fields = true ->
  flat fields fuel pl sh code = Some (pl', sh', c, t) ->
  check_proc sizes c (cspec poly pxor pand pzero pone bs kn coff eoff ooff fno off size) = true ->
  forall (cB : nat -> list bool -> list bool) (m : mem bool), shaped sizes m -> Inv fields sh m ->
  interp fields cB fuel pl (m, []) code = Some (pl', execB cB c (m, []), t)
  /\ fst (execB cB c (m, [])) = mixed_sem cB (cmicroB bs kn coff eoff ooff fno (S size) off size 0) m.
Proof.
  intros fields code fuel pl sh pl' sh' c t sizes bs kn coff eoff ooff fno off size Hf Hfl Hk cB m Hm HI.
  rewrite <- (emerge_sem cB (cmicroB bs kn coff eoff ooff fno (S size) off size 0)).
  exact (proc_final fields code fuel pl sh pl' sh' c t sizes _ _ Hf Hfl (cspec_hom sizes bs kn coff eoff ooff fno off size) Hk cB m Hm HI).
Qed.
Print Assumptions pctr_final.
