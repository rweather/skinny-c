(* WholeCtrVec.v — the WHOLE SIMD CTR encryption functions (skinny128_ctr_vec128/vec256_encrypt, skinny64_ctr_vec128_encrypt,
   mantis_ctr_vec128_encrypt) as translated into SIR.v with the vector block function (skinny128_ecb_encrypt_four / _eight, ...)
   kept as a PROCEDURE CALL (WholeProc.v), against a specification program that mirrors ModelCtr.crypt_loop at batch size L:
        refill:   ecounter := [the procedure call](counter lanes, key schedule);
                  every counter lane += L (big endian, byte-wise carries, on the ROW-SLICED layout of the lanes);
                  output[pos..] := input[pos..] xor ecounter[..]; offset field updated for a final partial batch
        leftover: output[pos..] := input[pos..] xor ecounter[offset..]; offset := offset + n.
   The L counter blocks are stored transposed: byte k of lane c lies at  coff + (k / rw) * (rw * L) + rw * c + k mod rw
   (rw = bytes per row: 4 for SKINNY-128, 2 for SKINNY-64 and MANTIS).
   Memory: 0 = output, 1 = input, 2 = the CTR object, 3 = the context. *)
From Coq Require Import List NArith Arith.
From Skinny Require Import IR SIR Anf IRCheck KernelSpecs KernelHom WholeSpecs SIRProofs WholeProc WholeCtr.
Import ListNotations.

Section VecSpec.
  Variable B : Type.
  Variables (bx ba : B -> B -> B) (b0 b1 : B).
  Variables (bs L rw kn coff eoff ooff fno : nat).
  Notation reg := (reg B).
  Definition cpos (c k : nat) : nat := coff + (k / rw) * (rw * L) + rw * c + k mod rw.
  Definition gather (c : nat) (ctx : list (list B)) : list (list B) := map (fun k => nth (cpos c k) ctx []) (seq 0 bs).
  Definition scatter (c : nat) (blk ctx : list (list B)) : list (list B) :=
    fold_left (fun acc k => set_nth (cpos c k) (nth k blk []) acc) (seq 0 bs) ctx.
  (* skinny128_ctr_increment / skinny64_ctr_increment / mantis_ctr_increment of the *-ctr-vec*.c back ends keep their carry
     in an [unsigned], skinny128_inc_counter / skinny64_inc_counter of skinny-internal.h in a uint16_t; the 16-bit inc_step
     of WholeCtr.v serves for both because the increment is at most 8 (lanes), so the value never exceeds 8 + 255 *)
  Definition incK (inc : N) (c : list (list B)) : list (list B) :=
    rev (inc_rev_bits B bx ba b0 (rev c) (const_bits B b0 b1 16 inc)).
  Definition v_inc_lane (c : nat) (inc : N) (m : mem B) : mem B :=
    mk4m B (reg m 0) (reg m 1) (reg m 2) (scatter c (incK inc (gather c (reg m 3))) (reg m 3)).

  Definition vstmt : stmt := SStore 3 eoff (L * bs) (ECall fno (EConcat [ELoad 3 coff (L * bs); ELoad 3 0 kn])).
  Definition inc_entries : list (entry B) := map (fun c => (None, v_inc_lane c (N.of_nat L))) (seq 0 L).

  Fixpoint vmicro (fuel off size pos : nat) : list (entry B) :=
    match size with
    | O => []
    | S _ =>
      match fuel with
      | O => []
      | S f =>
        if Nat.leb (L * bs) off then
          (Some [vstmt], ident B) :: inc_entries ++
          (if Nat.leb (L * bs) size then (None, s_xor B bx pos eoff (L * bs)) :: vmicro f off (size - L * bs) (pos + L * bs)
           else [(None, s_xor B bx pos eoff size); (None, s_setoff B b0 b1 ooff size)])
        else
          let temp := Nat.min (L * bs - off) size in
          (None, s_xor B bx pos (eoff + off) temp) :: (None, s_setoff B b0 b1 ooff (off + temp))
          :: vmicro f (off + temp) (size - temp) (pos + temp)
      end
    end.
  Definition vspec (off size : nat) : list (entry B) := emerge B (vmicro (S size) off size 0).
End VecSpec.

Section VecHom.
  Variables B1 B2 : Type.
  Variables (bx1 ba1 : B1 -> B1 -> B1) (z1 o1 : B1).
  Variables (bx2 ba2 : B2 -> B2 -> B2) (z2 o2 : B2).
  Variable h : B1 -> B2.
  Hypothesis h_bx : forall a b, h (bx1 a b) = bx2 (h a) (h b).
  Hypothesis h_ba : forall a b, h (ba1 a b) = ba2 (h a) (h b).
  Hypothesis h_z : h z1 = z2.
  Hypothesis h_o : h o1 = o2.
  Notation hb := (map (map h)).
  Notation hm := (map (map (map h))).
  Let Hreg := reg_homG B1 B2 h.

  Lemma gather_homG : forall bs L rw coff c ctx, hb (gather B1 bs L rw coff c ctx) = gather B2 bs L rw coff c (hb ctx).
  Proof.
    intros. unfold gather. rewrite map_map. apply map_ext. intros k. symmetry. exact (map_nth (map h) ctx [] _).
  Qed.
  Lemma scatter_homG : forall bs L rw coff c blk ctx,
    hb (scatter B1 bs L rw coff c blk ctx) = scatter B2 bs L rw coff c (hb blk) (hb ctx).
  Proof.
    intros bs L rw coff c blk ctx. unfold scatter. generalize (seq 0 bs) as ks. intros ks. revert ctx.
    induction ks as [|k ks IH]; intros ctx; [reflexivity|].
    cbn [fold_left]. rewrite IH, set_nth_map, <- (map_nth (map h) blk [] k). reflexivity.
  Qed.
  Lemma incK_homG : forall inc c, hb (incK B1 bx1 ba1 z1 o1 inc c) = incK B2 bx2 ba2 z2 o2 inc (hb c).
  Proof. exact (inc_bits_homG B1 B2 bx1 ba1 z1 o1 bx2 ba2 z2 o2 h h_bx h_ba h_z h_o). Qed.
  Lemma v_inc_lane_homG : forall bs L rw coff c inc m,
    hm (v_inc_lane B1 bx1 ba1 z1 o1 bs L rw coff c inc m) = v_inc_lane B2 bx2 ba2 z2 o2 bs L rw coff c inc (hm m).
  Proof.
    intros. unfold v_inc_lane, mk4m. cbn [map]. rewrite !Hreg, scatter_homG, incK_homG, gather_homG. reflexivity.
  Qed.
End VecHom.

Lemma v_inc_lane_homU : forall bs L rw coff c inc,
  homU (v_inc_lane poly pxor pand pzero pone bs L rw coff c inc) (v_inc_lane bool xorb andb false true bs L rw coff c inc).
Proof. intros. homU_by v_inc_lane_homG. Qed.

Notation vmicroP := (vmicro poly pxor pand pzero pone).
Notation vmicroB := (vmicro bool xorb andb false true).

Lemma inc_entries_hom : forall bs L rw coff,
  Forall2 entry_homU (inc_entries poly pxor pand pzero pone bs L rw coff) (inc_entries bool xorb andb false true bs L rw coff).
Proof.
  intros. unfold inc_entries. induction (seq 0 L) as [|c cs IH]; cbn [map]; auto using v_inc_lane_homU with homU.
Qed.

(* vmicro is convertible to WholeCtr.v's gmicro at batch size L * bs, with vstmt as the refill and inc_entries after it *)
Lemma vmicro_gmicro : forall B bx ba b0 b1 bs L rw kn coff eoff ooff fno fuel off size pos,
  vmicro B bx ba b0 b1 bs L rw kn coff eoff ooff fno fuel off size pos
  = gmicro B bx b0 b1 (L * bs) eoff ooff (vstmt bs L kn coff eoff fno) (inc_entries B bx ba b0 b1 bs L rw coff) fuel off size pos.
Proof. reflexivity. Qed.

Lemma vmicro_hom : forall bs L rw kn coff eoff ooff fno fuel off size pos,
  Forall2 entry_homU (vmicroP bs L rw kn coff eoff ooff fno fuel off size pos) (vmicroB bs L rw kn coff eoff ooff fno fuel off size pos).
Proof. intros. rewrite !vmicro_gmicro. apply gmicro_hom, inc_entries_hom. Qed.

Theorem vspec_hom : forall sizes bs L rw kn coff eoff ooff fno off size,
  Forall2 (entry_hom sizes) (vspec poly pxor pand pzero pone bs L rw kn coff eoff ooff fno off size)
                            (vspec bool xorb andb false true bs L rw kn coff eoff ooff fno off size).
Proof. intros. apply entry_homU_hom, emerge_hom, vmicro_hom. Qed.

Theorem vctr_final : forall fields code fuel pl sh pl' sh' c t sizes bs L rw kn coff eoff ooff fno off size,
  fields_okb fields = true ->
  flat fields fuel pl sh code = Some (pl', sh', c, t) ->
  check_proc sizes c (vspec poly pxor pand pzero pone bs L rw kn coff eoff ooff fno off size) = true ->
  forall (cB : nat -> list bool -> list bool) (m : mem bool), shaped sizes m -> Inv fields sh m ->
  interp fields cB fuel pl (m, []) code = Some (pl', execB cB c (m, []), t)
  /\ fst (execB cB c (m, [])) = mixed_sem cB (vmicroB bs L rw kn coff eoff ooff fno (S size) off size 0) m.
Proof.
  intros fields code fuel pl sh pl' sh' c t sizes bs L rw kn coff eoff ooff fno off size Hf Hfl Hk cB m Hm HI.
  rewrite <- (emerge_sem cB (vmicroB bs L rw kn coff eoff ooff fno (S size) off size 0)).
  exact (proc_final fields code fuel pl sh pl' sh' c t sizes _ _ Hf Hfl (vspec_hom sizes bs L rw kn coff eoff ooff fno off size) Hk cB m Hm HI).
Qed.
Print Assumptions vctr_final.
