(* ProofsApiErr.v — two developments on the API model.  First the error contract of the library's
   public API (C14): the calls picked out by [invalid] return 0 and leave the world as it was,
   valid calls return 1, and a history gives the same results without its invalid calls.  Then,
   from [readonly] to [interleaving_independent], locality of [step] (C18), which has nothing to do
   with errors: it is drawn from ProofsApiHeap.step_eff.  Last, [welltyped_no_bad] (C14 again). *)
From Coq Require Import List Bool NArith Arith.
From Skinny Require Import Bits SpecSkinny ModelCipher ModelCtr Api ProofsCtr ProofsApiCtr ProofsApiHeap.
Import ListNotations.

(* block size of the family a kind belongs to *)
Definition kbs (k : kind) : N := match k with K128 | T128 | C128 | P128 => 16 | _ => 8 end.
(* zeroed, failed init, cleaned up *)
Definition inert_ctr {K} (c : ctrobj K) : bool := match c with CNull => true | _ => false end.
Definition inert_par {K} (p : parobj K) : bool := match p with PObj _ None _ => true | _ => false end.
(* is the named object an inert CTR / parallel object? (false for other kinds and absent ids) *)
Definition inert (w : world) (id : N) : bool :=
  match lookup w id with
  | Some (OC128 c) => inert_ctr c | Some (OC64 c) => inert_ctr c | Some (OMC c) => inert_ctr c
  | Some (OP128 p) => inert_par p | Some (OP64 p) => inert_par p | Some (OMP p) => inert_par p
  | _ => false end.
Definition isnull {A} (o : option A) : bool := match o with None => true | Some _ => false end.
Definition out_of (lo hi size : N) : bool := (size <? lo)%N || (hi <? size)%N.
(* NULL object or inert object *)
Definition obj_inert (w : world) (o : option N) : bool :=
  match o with None => true | Some id => inert w id end.

(* the calls the documentation calls invalid, classified independently of [step]: NULL object,
   NULL key, key / tweak / counter length out of range, unsupported MANTIS round count, a byte
   count that is not a whole number of blocks, NULL data pointers, an inert object *)
Definition invalid (w : world) (o : op) : bool :=
  match o with
  | OSetKey k ob key size => obj_inert w ob || isnull key || out_of (kbs k) (3 * kbs k) size
  | OSetTweakedKey k ob key size => obj_inert w ob || isnull key || out_of (kbs k) (2 * kbs k) size
  | OSetTweak k ob tw size =>
      obj_inert w ob || (match k with MK | MC => negb (size =? 8)%N | _ => out_of 1 (kbs k) size end)
  | OMSetKey k ob key size rounds mode =>
      obj_inert w ob || isnull key || negb (size =? 16)%N || out_of 5 8 rounds
  | OInit k ob => isnull ob
  | OSetCtr k ob c size => obj_inert w ob || (kbs k <? size)%N
  | OCrypt k ob inp size outnull => obj_inert w ob || isnull inp || outnull
  | OParEnc k ob data size | OParDec k ob data size =>
      obj_inert w ob || negb (N.modulo size (kbs k) =? 0)%N
  | OMParCrypt ob data tw size => obj_inert w ob || negb (N.modulo size 8 =? 0)%N
  | _ => false
  end.

Definition int_returning (o : op) : bool :=
  match o with
  | OSetKey _ _ _ _ | OSetTweakedKey _ _ _ _ | OSetTweak _ _ _ _ | OMSetKey _ _ _ _ _ _
  | OInit _ _ | OSetCtr _ _ _ _ | OCrypt _ _ _ _ _ | OParEnc _ _ _ _ | OParDec _ _ _ _
  | OMParCrypt _ _ _ _ => true
  | _ => false
  end.

Definition live_ctr {K} (c : ctrobj K) : bool := match c with CJunk => false | _ => true end.
Definition live_par {K} (p : parobj K) : bool := match p with PJunk _ => false | _ => true end.

Definition has_kind (k : kind) (x : obj) : bool :=
  match k, x with
  | K128, OK128 _ | T128, OT128 _ | K64, OK64 _ | T64, OT64 _ | MK, OMK _ => true
  | C128, OC128 c => live_ctr c | C64, OC64 c => live_ctr c | MC, OMC c => live_ctr c
  | P128, OP128 p => live_par p | P64, OP64 p => live_par p | MP, OMP p => live_par p
  | _, _ => false
  end.
(* uninitialised memory allowed: what init accepts *)
Definition has_kind_raw (k : kind) (x : obj) : bool :=
  match k, x with
  | C128, OC128 _ | C64, OC64 _ | MC, OMC _ | P128, OP128 _ | P64, OP64 _ | MP, OMP _ => true
  | _, _ => false
  end.
Definition typed_at (w : world) (ob : option N) (nullok : bool) (allowed : bool) (k : kind) : bool :=
  match ob with
  | None => nullok
  | Some id => allowed && match lookup w id with Some x => has_kind k x | None => false end
  end.

Definition welltyped (w : world) (o : op) : bool :=
  match o with
  | ONew _ _ _ | OCfgBackend _ | OCfgCpuReal | OCfgCpuSim _ | OCfgAmbient _ | OCfgFail _ | OProbe => true
  | OSetKey k ob _ _ =>
      typed_at w ob true (match k with K128 | K64 | C128 | C64 | P128 | P64 => true | _ => false end) k
  | OSetTweakedKey k ob _ _ =>
      typed_at w ob true (match k with T128 | T64 | C128 | C64 => true | _ => false end) k
  | OSetTweak k ob _ _ =>
      typed_at w ob true (match k with T128 | T64 | C128 | C64 | MK | MC => true | _ => false end) k
  | OMSetKey k ob _ _ _ _ =>
      typed_at w ob true (match k with MK | MC | MP => true | _ => false end) k
  | OSwap k ob =>
      typed_at w ob (match k with MP => true | _ => false end)
               (match k with MK | MP => true | _ => false end) k
  | OEnc k ob _ | OImg k ob =>
      typed_at w ob false (match k with K128 | T128 | K64 | T64 | MK => true | _ => false end) k
  | ODec k ob _ =>
      typed_at w ob false (match k with K128 | T128 | K64 | T64 => true | _ => false end) k
  | OCryptT ob _ _ => typed_at w ob false true MK
  | OInit k ob =>
      match ob with
      | None => true
      | Some id => match lookup w id with Some x => has_kind_raw k x | None => false end
      end
  | OCleanup k ob =>
      typed_at w ob true (match k with C128 | C64 | MC | P128 | P64 | MP => true | _ => false end) k
  | OSetCtr k ob _ _ | OCrypt k ob _ _ _ =>
      typed_at w ob true (match k with C128 | C64 | MC => true | _ => false end) k
  | OParEnc k ob _ _ | OParDec k ob _ _ =>
      typed_at w ob true (match k with P128 | P64 => true | _ => false end) k
  | OMParCrypt ob _ _ _ => typed_at w ob true true MP
  | OWhich k ob =>
      typed_at w ob false (match k with C128 | C64 | MC | P128 | P64 | MP => true | _ => false end) k
  | OPsize k ob =>
      typed_at w ob false (match k with P128 | P64 | MP => true | _ => false end) k
  end.

(* the int a setter returns when its reject condition is b *)
Definition ret_of_reject (b : bool) : N := if b then 0%N else 1%N.

(* the setters of the cipher layer return 1 exactly when the size is in range *)
Lemma code_size_ok {X} lo hi size (a b : X) :
  fst (if size_ok lo hi size then (1%N, a) else (0%N, b))
  = ret_of_reject (out_of (N.of_nat lo) (N.of_nat hi) size).
Proof.
  unfold size_ok, out_of. rewrite !N.ltb_antisym, <- negb_andb.
  destruct (_ && _); reflexivity.
Qed.

Section SkinnyCodes.
  Variable C : Type.
  Variable cx : C -> C -> C.
  Variable cnib : bool -> bool -> bool -> bool -> C.
  Variables l2 l3 : C -> C.
  Variable bs : nat.
  Variable load : list byte -> state C.
  Variable czero : C.
  Variable rounds_for : nat -> nat.

  Notation skey := (set_key C cx cnib l2 l3 bs load czero rounds_for).

  Lemma code_set_key ks key size :
    fst (skey ks key size)
    = ret_of_reject (isnull key || out_of (N.of_nat bs) (N.of_nat (3 * bs)) size).
  Proof. unfold set_key. destruct key; [apply code_size_ok|reflexivity]. Qed.
  (* set_plain128 / set_plain64: set_key on the schedule of a tweakable object *)
  Lemma code_set_plain (t : tkeysched C) tw key size :
    fst (let '(r, k) := skey (tk_ks C t) key size in (r, {| tk_ks := k; tk_tweak := tw |}))
    = ret_of_reject (isnull key || out_of (N.of_nat bs) (N.of_nat (3 * bs)) size).
  Proof. rewrite <- (code_set_key (tk_ks C t)). now destruct (skey (tk_ks C t) key size). Qed.
  Lemma code_set_tweaked_key t key size :
    fst (set_tweaked_key C cx cnib l2 l3 bs load czero rounds_for t key size)
    = ret_of_reject (isnull key || out_of (N.of_nat bs) (N.of_nat (2 * bs)) size).
  Proof. unfold set_tweaked_key. destruct key; [apply code_size_ok|reflexivity]. Qed.
  Lemma code_set_tweak t tw size :
    fst (set_tweak C cx bs load t tw size) = ret_of_reject (out_of 1 (N.of_nat bs) size).
  Proof. apply (code_size_ok 1 bs). Qed.
End SkinnyCodes.

Lemma code_mantis_set_key m key size rounds mode :
  fst (mantis_set_key m key size rounds mode)
  = ret_of_reject (isnull key || negb (size =? 16)%N || out_of 5 8 rounds).
Proof.
  unfold mantis_set_key, out_of. destruct key as [k|]; [|reflexivity].
  rewrite !N.ltb_antisym. cbn [isnull orb].
  destruct (size =? 16)%N, (5 <=? rounds)%N, (rounds <=? 8)%N; cbn [andb negb orb];
    try reflexivity; destruct (mode =? 1)%N; reflexivity.
Qed.
Lemma code_mantis_set_tweak m tw size :
  fst (mantis_set_tweak m tw size) = ret_of_reject (negb (size =? 8)%N).
Proof. unfold mantis_set_tweak. destruct (size =? 8)%N; reflexivity. Qed.
Lemma code_set_counter K bs B st cnt size :
  fst (set_counter K bs B st cnt size) = ret_of_reject (N.of_nat bs <? size)%N.
Proof.
  unfold set_counter. rewrite N.ltb_antisym. destruct (size <=? N.of_nat bs)%N; reflexivity.
Qed.

(* m128_set_key, set_plain128 ... are these at byte / nib: the hints reach them by unfolding *)
Create HintDb codes.
#[local] Hint Resolve code_set_key code_set_tweaked_key code_set_tweak code_set_plain
  code_mantis_set_key code_mantis_set_tweak : codes.

(* outcome of a call with reject condition b *)
Definition outcome (b : bool) (w : world) (r : world * list event) : Prop :=
  if b then r = (w, [ERet 0%N])
  else exists w', r = (w', [ERet 1%N]) \/ exists out, r = (w', [ERetOut 1%N out]).

Lemma outcome_if b w w1 r r' : r = ret_of_reject b -> r' = r \/ r' = 1%N ->
  outcome b w (if N.eqb r 0 then ret0 w else (w1, [ERet r'])).
Proof.
  intros -> Hr. destruct b; [reflexivity|]. exists w1. left.
  destruct Hr as [->| ->]; reflexivity.
Qed.

Lemma outcome_direct {X} (p : N * X) w id (W : X -> obj) b :
  fst p = ret_of_reject b ->
  outcome b w (let '(r, x') := p in
               if N.eqb r 0 then ret0 w else (store_obj w id (W x'), [ERet r])).
Proof. destruct p as [r x']. intros H. apply outcome_if; [exact H|left; reflexivity]. Qed.

Lemma outcome_ctr_setter K bs batch wrap w id be n st (f : K -> N * K) b :
  (forall k, fst (f k) = ret_of_reject b) ->
  outcome b w (ctr_setter K bs batch wrap w id (CLive be n st) f).
Proof.
  intros Hf. unfold ctr_setter. specialize (Hf (c_key st)). destruct (f (c_key st)) as [r k'].
  apply outcome_if; [exact Hf|right; reflexivity].
Qed.

Lemma outcome_par_setter K wrap w id vt n k ps (f : K -> N * K) b :
  (forall k, fst (f k) = ret_of_reject b) ->
  outcome b w (par_setter K wrap w id (PObj vt (Some (n, k)) ps) f).
Proof.
  intros Hf. apply (outcome_direct (f k) w id (fun k' => wrap (PObj vt (Some (n, k')) ps))), Hf.
Qed.

Lemma outcome_ctr_setctr K bs batch wrap w id be n st cnt size :
  outcome (N.of_nat bs <? size)%N w (ctr_setctr K bs batch wrap w id (CLive be n st) cnt size).
Proof.
  apply (outcome_direct (set_counter K bs (batch be) st cnt size) w id
           (fun st' => wrap (CLive be n st'))), code_set_counter.
Qed.

Lemma outcome_ctr_crypt K E bs batch wrap w id be n st inp size outnull :
  0 < bs -> (forall b, 0 < batch b) -> (forall k blk, length (E k blk) = bs) ->
  outcome (isnull inp || outnull) w
          (ctr_crypt K E bs batch wrap w id (CLive be n st) inp size outnull).
Proof.
  intros Hbs HB HE. unfold ctr_crypt. destruct inp as [data|]; [|reflexivity].
  destruct outnull; [reflexivity|]. cbn [isnull orb outcome].
  destruct (crypt_total_any K E bs (batch be) Hbs (HB be) HE st (pad_to (N.to_nat size) data))
    as (st' & out & ->).
  eexists. right. eexists. reflexivity.
Qed.

Lemma outcome_par_run K bs w vt n k ps size f tw data :
  outcome (negb (size mod N.of_nat bs =? 0)%N) w
          (par_run K bs w (PObj vt (Some (n, k)) ps) size f tw data).
Proof.
  unfold par_run. destruct (negb (size mod N.of_nat bs =? 0)%N); cbn.
  - reflexivity.
  - eexists. right. eexists. reflexivity.
Qed.

Lemma outcome_eq b b' w r : outcome b' w r -> b = b' -> outcome b w r.
Proof. intros H ->. exact H. Qed.

Create HintDb outcome.
#[local] Hint Resolve outcome_ctr_setter outcome_par_setter outcome_ctr_setctr outcome_ctr_crypt
  outcome_par_run Nat.lt_0_succ batch128_pos batch64_pos E128_length E64_length
  mantis_crypt_length : outcome.
#[local] Hint Extern 1 (outcome _ _ (let '(_, _) := _ in _)) => apply outcome_direct : outcome.

(* case analysis on a well-typed call on a named object: the kind tag, the
   stored object, and (for CTR / parallel objects) its state *)
Ltac by_kind k w id L :=
  destruct k; try discriminate;
  destruct (lookup w id) as [[]|] eqn:L; try discriminate;
  try match goal with c : ctrobj _ |- _ => destruct c as [| |?be ?n ?st]; try discriminate end;
  try match goal with p : parobj _ |- _ => destruct p as [?f|?vt [[?n ?k0]|] ?ps]; try discriminate end.

Lemma step_outcome w o :
  welltyped w o = true -> int_returning o = true ->
  (forall k id, o <> OInit k (Some id)) ->
  outcome (invalid w o) w (step w o).
Proof.
  intros Hwt Hint Hni.
  destruct_op o; try discriminate Hint; clear Hint;
    (destruct ob as [id|]; [|reflexivity]).
  all: try match goal with |- context [OInit] => exfalso; exact (Hni k id eq_refl) end.
  all: unfold welltyped, typed_at in Hwt.
  (* OMParCrypt carries no kind tag *)
  all: try match goal with |- context [OMParCrypt] => remember MP as k in Hwt end.
  all: by_kind k w id L; unfold invalid, obj_inert, inert, step; rewrite L;
    first [reflexivity | eapply outcome_eq; [solve [eauto with outcome codes] | reflexivity]].
Qed.

Theorem invalid_changes_nothing : forall w o,
  welltyped w o = true -> invalid w o = true -> step w o = (w, [ERet 0%N]).
Proof.
  intros w o Hwt Hinv.
  assert (Hint : int_returning o = true) by (destruct o; try discriminate Hinv; reflexivity).
  pose proof (step_outcome w o Hwt Hint) as H. rewrite Hinv in H. apply H.
  intros k id ->. discriminate Hinv.      (* init of a named object is not among the invalid calls *)
Qed.

Theorem valid_returns_1 : forall w o,
  welltyped w o = true -> int_returning o = true -> invalid w o = false ->
  (forall k ob, o <> OInit k ob) ->          (* init may also fail for lack of memory *)
  exists w' evs, step w o = (w', evs) /\
    (last evs EDone = ERet 1%N \/ exists out, last evs EDone = ERetOut 1%N out).
Proof.
  intros w o Hwt Hint Hinv Hni.
  pose proof (step_outcome w o Hwt Hint (fun k id => Hni k (Some id))) as H.
  rewrite Hinv in H. destruct H as (w' & [-> | (out & ->)]); eexists _, _; (split; [reflexivity|]).
  - left. reflexivity.
  - right. exists out. reflexivity.
Qed.

Lemma run_nil : forall w, run w [] = (w, []).
Proof. reflexivity. Qed.

(* any history gives the same results with the invalid calls removed: run_skipping
   does not execute a call that is invalid in the world it would be executed in *)
Fixpoint run_skipping (w : world) (ops : list op) : world * list (list event) :=
  match ops with
  | [] => (w, [])
  | o :: rest =>
      if welltyped w o && invalid w o
      then let '(w', evs) := run_skipping w rest in (w', [ERet 0%N] :: evs)
      else let '(w1, ev) := step w o in
           let '(w', evs) := run_skipping w1 rest in (w', ev :: evs)
  end.

Theorem history_without_invalid : forall ops w, run w ops = run_skipping w ops.
Proof.
  induction ops as [|o ops IH]; intros w; [reflexivity|].
  rewrite run_cons. cbn [run_skipping].
  destruct (welltyped w o && invalid w o) eqn:Hb.
  - apply andb_true_iff in Hb. rewrite (invalid_changes_nothing w o (proj1 Hb) (proj2 Hb)).
    cbn [fst snd]. rewrite IH. destruct (run_skipping w ops). reflexivity.
  - destruct (step w o) as [w1 ev]. cbn [fst snd]. rewrite IH.
    destruct (run_skipping w1 ops). reflexivity.
Qed.

(* the well-typedness hypothesis excludes exactly the calls the model does not
   define: an ill-typed int-returning call makes step emit EBad *)
Theorem illtyped_is_bad : forall w o,
  int_returning o = true -> welltyped w o = false -> exists n, step w o = (w, [EBad n]).
Proof.
  intros w o Hint Hwt.
  destruct_op o; try discriminate Hint; clear Hint;
  (destruct ob as [id|]; [|discriminate Hwt]);
  unfold welltyped, typed_at in Hwt; unfold step;
  try (destruct k; try (eexists; reflexivity));
  destruct (lookup w id) as [[]|]; try (eexists; reflexivity); try discriminate Hwt;
  match goal with
  | c : ctrobj _ |- _ => destruct c; try discriminate Hwt; eexists; reflexivity
  | p : parobj _ |- _ => destruct p; try discriminate Hwt; eexists; reflexivity
  end.
Qed.

(* C18 (locality) from here to interleaving_independent.  The calls that only read: *)
Definition readonly (o : op) : bool :=
  match o with
  | OEnc _ _ _ | ODec _ _ _ | OCryptT _ _ _ | OImg _ _ | OParEnc _ _ _ _
  | OParDec _ _ _ _ | OMParCrypt _ _ _ _ | OWhich _ _ | OPsize _ _ | OProbe => true
  | _ => false
  end.

Lemma readonly_not_writing o : readonly o = true -> is_setter o = false /\ is_cfg o = false.
Proof. destruct o; try discriminate; split; reflexivity. Qed.

Theorem readonly_same_world : forall w o, readonly o = true -> fst (step w o) = w.
Proof.
  intros w o Hr. destruct (readonly_not_writing o Hr) as [Hs Hc].
  destruct (step_shape w o) as (e & ev & Sh & ->).
  destruct Sh; try subst o; try discriminate Hr; try congruence. reflexivity.
Qed.

Definition weq (w1 w2 : world) : Prop :=
  (forall id, lookup w1 id = lookup w2 id) /\ w_heap w1 = w_heap w2 /\ w_cpu w1 = w_cpu w2
  /\ w_ambient w1 = w_ambient w2 /\ w_build w1 = w_build w2 /\ w_real w1 = w_real w2.

Lemma weq_sym w1 w2 : weq w1 w2 -> weq w2 w1.
Proof.
  intros (H & ? & ? & ? & ? & ?).
  split; [intro id; symmetry; apply H | repeat split; congruence].
Qed.
Lemma weq_trans w1 w2 w3 : weq w1 w2 -> weq w2 w3 -> weq w1 w3.
Proof.
  intros (H & ? & ? & ? & ? & ?) (H' & ? & ? & ? & ? & ?).
  split; [intro id; rewrite H; apply H' | repeat split; congruence].
Qed.

(* what an effect leaves under an id depends only on what was there *)
Lemma apply_eff_lookup e w w' i : lookup w i = lookup w' i ->
  lookup (apply_eff e w) i = lookup (apply_eff e w') i.
Proof.
  intros H.
  assert (St : forall v v' id x, lookup v i = lookup v' i ->
                 lookup (store_obj v id x) i = lookup (store_obj v' id x) i).
  { intros v v' id x Hv. destruct (N.eq_dec i id) as [->|Hne].
    - rewrite !lookup_store_same. reflexivity.
    - rewrite !lookup_store_other by exact Hne. exact Hv. }
  destruct e; cbn [apply_eff]; try exact H; apply St; exact H.
Qed.

Lemma weq_apply e w1 w2 : weq w1 w2 -> weq (apply_eff e w1) (apply_eff e w2).
Proof.
  intros (Hl & Hh & Hc & Ha & Hb & Hr). split; [intro id; apply apply_eff_lookup, Hl|].
  destruct e; cbn [apply_eff w_heap w_cpu w_ambient w_build w_real with_heap with_cpu
    with_ambient store_obj]; repeat split; assumption.
Qed.

Theorem step_respects_weq : forall w1 w2 o,
  weq w1 w2 -> weq (fst (step w1 o)) (fst (step w2 o)) /\ snd (step w1 o) = snd (step w2 o).
Proof.
  intros w1 w2 o Hw. pose proof Hw as (Hl & He).
  destruct (step_eff w1 o) as (e & ev & _ & F).
  rewrite (F w1 (same_env_refl w1) (fun _ _ => eq_refl)), (F w2 He (fun id _ => eq_sym (Hl id))).
  split; [apply weq_apply, Hw|reflexivity].
Qed.

(* the object an op acts on; it unfolds to the same match as ProofsApiHeap.op_obj, in whose
   terms step_eff is stated *)
Definition target (o : op) : option N :=
  match o with
  | ONew _ id _ => Some id
  | OCfgBackend _ | OCfgCpuReal | OCfgCpuSim _ | OCfgAmbient _ | OCfgFail _ | OProbe => None
  | OSetKey _ ob _ _ | OSetTweakedKey _ ob _ _ | OSetTweak _ ob _ _ | OMSetKey _ ob _ _ _ _
  | OSwap _ ob | OEnc _ ob _ | ODec _ ob _ | OCryptT ob _ _ | OImg _ ob | OInit _ ob
  | OCleanup _ ob | OSetCtr _ ob _ _ | OCrypt _ ob _ _ _ | OParEnc _ ob _ _ | OParDec _ ob _ _
  | OMParCrypt ob _ _ _ | OWhich _ ob | OPsize _ ob => ob
  end.

Definition heap_neutral (o : op) : bool :=
  match o with
  | ONew _ _ _ | OCfgBackend _ | OCfgCpuReal | OCfgCpuSim _ | OCfgAmbient _ | OCfgFail _
  | OInit _ _ | OCleanup _ _ => false
  | _ => true
  end.

(* what a heap-neutral op on t may do: nothing, or store a new object under t *)
Definition quiet (t : option N) (e : eff) : Prop :=
  e = eff_none \/ exists id x, t = Some id /\ e = eff_store id x.

Lemma quiet_env t e w : quiet t e -> same_env w (apply_eff e w).
Proof. intros [->|(id & x & _ & ->)]; exact (same_env_refl w). Qed.
(* quiet effects leave the environment alone, on either side *)
Lemma quiet_envs t t' e e' w w' : quiet t e -> quiet t' e' -> same_env w w' ->
  same_env (apply_eff e w) (apply_eff e' w').
Proof. intros [->|(? & ? & _ & ->)] [->|(? & ? & _ & ->)] H; exact H. Qed.
Lemma quiet_other t e w j : quiet t e -> t <> Some j -> lookup (apply_eff e w) j = lookup w j.
Proof.
  intros [->|(id & x & -> & ->)] Hj; [reflexivity|].
  apply lookup_store_other. intros ->. apply Hj. reflexivity.
Qed.
(* a heap-neutral op reads only its target and the environment, and is quiet *)
Lemma step_neutral w o : heap_neutral o = true ->
  exists e ev, quiet (target o) e /\
    forall w', same_env w w' -> (forall id, target o = Some id -> lookup w' id = lookup w id) ->
    step w' o = (apply_eff e w', ev).
Proof.
  intros Hn. destruct (step_eff w o) as (e & ev & Sh & F).
  exists e, ev. split; [|exact F].
  destruct Sh; try subst o; try discriminate Hn.
  - left. reflexivity.
  - destruct o; discriminate.
  - right. eauto.
Qed.

Theorem distinct_objects_commute : forall w o1 o2 id1 id2,
  target o1 = Some id1 -> target o2 = Some id2 -> id1 <> id2 ->
  heap_neutral o1 = true -> heap_neutral o2 = true ->
  let '(wa, ea1) := step w o1 in let '(wab, ea2) := step wa o2 in
  let '(wb, eb2) := step w o2 in let '(wba, eb1) := step wb o1 in
  weq wab wba /\ ea1 = eb1 /\ ea2 = eb2.
Proof.
  intros w o1 o2 id1 id2 Ht1 Ht2 Hne Hn1 Hn2.
  destruct (step_neutral w o1 Hn1) as (e1 & ev1 & Q1 & F1).
  destruct (step_neutral w o2 Hn2) as (e2 & ev2 & Q2 & F2).
  rewrite Ht1 in Q1, F1. rewrite Ht2 in Q2, F2.
  assert (N12 : Some id1 <> Some id2) by congruence.
  assert (N21 : Some id2 <> Some id1) by congruence.
  rewrite (F1 w (same_env_refl w) (fun _ _ => eq_refl)).
  rewrite (F2 (apply_eff e1 w) (quiet_env _ e1 w Q1))
    by (intros id [= <-]; apply (quiet_other _ e1 w id2 Q1 N12)).
  rewrite (F2 w (same_env_refl w) (fun _ _ => eq_refl)).
  rewrite (F1 (apply_eff e2 w) (quiet_env _ e2 w Q2))
    by (intros id [= <-]; apply (quiet_other _ e2 w id1 Q2 N21)).
  split; [|split; reflexivity]. split.
  - (* id differs from id1 or from id2, and a quiet effect does not show at other ids *)
    intro id. destruct (N.eq_dec id id2) as [->|N2].
    + rewrite (quiet_other _ e1 (apply_eff e2 w) id2 Q1 N12).
      apply apply_eff_lookup, (quiet_other _ e1 w id2 Q1 N12).
    + assert (Some id2 <> Some id) as N2' by congruence.
      rewrite (quiet_other _ e2 (apply_eff e1 w) id Q2 N2').
      apply apply_eff_lookup. symmetry. apply (quiet_other _ e2 w id Q2 N2').
  - apply (quiet_envs _ _ e2 e1 _ _ Q2 Q1), (quiet_envs _ _ e1 e2 w w Q1 Q2), same_env_refl.
Qed.

(* l is an interleaving of l1 (tagged true) and l2 (tagged false) *)
Inductive interleave {A : Type} : list A -> list A -> list (bool * A) -> Prop :=
| il_nil : interleave [] [] []
| il_left a l1 l2 l : interleave l1 l2 l -> interleave (a :: l1) l2 ((true, a) :: l)
| il_right a l1 l2 l : interleave l1 l2 l -> interleave l1 (a :: l2) ((false, a) :: l).

(* the results that belong to one thread *)
Fixpoint proj {B : Type} (side : bool) (tags : list bool) (evs : list B) : list B :=
  match tags, evs with
  | t :: ts, e :: es => if Bool.eqb t side then e :: proj side ts es else proj side ts es
  | _, _ => []
  end.

(* the ids a history acts on *)
Definition touches (l : list op) (id : N) : Prop := exists o, In o l /\ target o = Some id.

(* two worlds agree on a set of objects and on the environment *)
Definition agree_on (S : N -> Prop) (w w1 : world) : Prop :=
  (forall id, S id -> lookup w id = lookup w1 id) /\ same_env w w1.

Lemma step_own (S : N -> Prop) w w1 o :
  agree_on S w w1 -> heap_neutral o = true -> (forall id, target o = Some id -> S id) ->
  snd (step w o) = snd (step w1 o) /\ agree_on S (fst (step w o)) (fst (step w1 o)).
Proof.
  intros [Hl He] Hn Ht. destruct (step_neutral w o Hn) as (e & ev & Q & F).
  rewrite (F w (same_env_refl w) (fun _ _ => eq_refl)).
  rewrite (F w1 He (fun id H => eq_sym (Hl id (Ht id H)))).
  cbn [fst snd]. split; [reflexivity|]. split.
  - intros id Hid. apply apply_eff_lookup, Hl, Hid.
  - exact (quiet_envs _ _ e e w w1 Q Q He).
Qed.

Lemma step_other (S : N -> Prop) w w1 o :
  agree_on S w w1 -> heap_neutral o = true -> (forall id, target o = Some id -> ~ S id) ->
  agree_on S (fst (step w o)) w1.
Proof.
  intros [Hl He] Hn Ht. destruct (step_neutral w o Hn) as (e & ev & Q & F).
  rewrite (F w (same_env_refl w) (fun _ _ => eq_refl)). cbn [fst]. split.
  - intros id Hid. rewrite (quiet_other _ e w id Q); [apply Hl, Hid|].
    intros H. exact (Ht id H Hid).
  - exact (quiet_envs _ None e eff_none w w1 Q (or_introl eq_refl) He).
Qed.

Lemma agree_on_refl S w : agree_on S w w.
Proof. split; [reflexivity | apply same_env_refl]. Qed.

(* thread 1 works on the objects in S1, thread 2 on those in S2, and no object is in both: each
   thread sees the results of its own sequential run, from any world that agrees on its objects *)
Lemma interleave_run (S1 S2 : N -> Prop) l1 l2 l : interleave l1 l2 l ->
  (forall id, S1 id -> S2 id -> False) ->
  (forall o, In o l1 -> heap_neutral o = true /\ forall id, target o = Some id -> S1 id) ->
  (forall o, In o l2 -> heap_neutral o = true /\ forall id, target o = Some id -> S2 id) ->
  forall w w1 w2, agree_on S1 w w1 -> agree_on S2 w w2 ->
  (proj true (map fst l) (snd (run w (map snd l))) = snd (run w1 l1)
   /\ agree_on S1 (fst (run w (map snd l))) (fst (run w1 l1))) /\
  (proj false (map fst l) (snd (run w (map snd l))) = snd (run w2 l2)
   /\ agree_on S2 (fst (run w (map snd l))) (fst (run w2 l2))).
Proof.
  intros Hil Hdis.
  induction Hil as [|a l1 l2 l _ IH|a l1 l2 l _ IH]; intros H1 H2 w w1 w2 A1 A2.
  - split; (split; [reflexivity|assumption]).
  - destruct (H1 a (or_introl eq_refl)) as [Hn Ht].
    destruct (step_own S1 w w1 a A1 Hn Ht) as [Hev A1'].
    pose proof (step_other S2 w w2 a A2 Hn (fun id Hid C => Hdis id (Ht id Hid) C)) as A2'.
    destruct (IH (fun o Ho => H1 o (or_intror Ho)) H2 _ _ _ A1' A2') as [[E1 B1] IH2].
    cbn [map fst snd]. rewrite !run_cons. cbn [fst snd proj Bool.eqb]. rewrite Hev, E1.
    split; [split; [reflexivity|exact B1]|exact IH2].
  - destruct (H2 a (or_introl eq_refl)) as [Hn Ht].
    destruct (step_own S2 w w2 a A2 Hn Ht) as [Hev A2'].
    pose proof (step_other S1 w w1 a A1 Hn (fun id Hid C => Hdis id C (Ht id Hid))) as A1'.
    destruct (IH H1 (fun o Ho => H2 o (or_intror Ho)) _ _ _ A1' A2') as [IH1 [E2 B2]].
    cbn [map fst snd]. rewrite !run_cons. cbn [fst snd proj Bool.eqb]. rewrite Hev, E2.
    split; [exact IH1|split; [reflexivity|exact B2]].
Qed.

(* any interleaving of two threads' heap-neutral histories on disjoint sets of
   objects gives each thread the results of its own sequential run, and leaves
   each thread's objects as its own sequential run leaves them *)
Theorem interleaving_independent : forall l1 l2 l w,
  interleave l1 l2 l ->
  (forall o, In o l1 -> heap_neutral o = true) ->
  (forall o, In o l2 -> heap_neutral o = true) ->
  (forall id, touches l1 id -> touches l2 id -> False) ->
  let r := run w (map snd l) in
  proj true (map fst l) (snd r) = snd (run w l1)
  /\ proj false (map fst l) (snd r) = snd (run w l2)
  /\ (forall id, touches l1 id -> lookup (fst r) id = lookup (fst (run w l1)) id)
  /\ (forall id, touches l2 id -> lookup (fst r) id = lookup (fst (run w l2)) id).
Proof.
  intros l1 l2 l w Hil Hn1 Hn2 Hdis r.
  assert (T : forall l0 : list op, (forall o, In o l0 -> heap_neutral o = true) ->
            forall o, In o l0 -> heap_neutral o = true /\ forall id, target o = Some id -> touches l0 id).
  { intros l0 Hn o Ho. split; [apply Hn, Ho|intros id Hid; exists o; split; assumption]. }
  destruct (interleave_run _ _ l1 l2 l Hil Hdis (T l1 Hn1) (T l2 Hn2) w w w
              (agree_on_refl _ w) (agree_on_refl _ w)) as [[E1 [A1 _]] [E2 [A2 _]]].
  repeat split; assumption.
Qed.

Definition no_bad (evs : list event) : Prop := forall n, ~ In (EBad n) evs.

Definition nobad (ev : list event) : bool :=
  forallb (fun e => match e with EBad _ => false | _ => true end) ev.
Lemma nobad_spec ev : nobad ev = true -> no_bad ev.
Proof.
  intros H n C. unfold nobad in H. rewrite forallb_forall in H. apply H in C. discriminate C.
Qed.

Lemma no_bad_outcome b w r : outcome b w r -> no_bad (snd r).
Proof.
  unfold outcome. destruct b; [intros ->|intros (w' & [-> | (out & ->)])];
    apply nobad_spec; reflexivity.
Qed.

(* together with illtyped_is_bad: step emits EBad exactly on the calls the
   well-typedness hypothesis excludes (for the int-returning functions) *)
Theorem welltyped_no_bad : forall w o, welltyped w o = true -> no_bad (snd (step w o)).
Proof.
  intros w o Hwt.
  destruct (int_returning o && negb (match o with OInit _ (Some _) => true | _ => false end)) eqn:Hi.
  - apply andb_true_iff in Hi. destruct Hi as [Hi Hn].
    apply (no_bad_outcome (invalid w o) w). apply step_outcome; try assumption.
    intros k id ->. discriminate Hn.
  - apply nobad_spec.
    destruct_op o; try discriminate Hi; clear Hi; try reflexivity;
      unfold welltyped, typed_at in Hwt;
      (destruct ob as [id|];
       [|try discriminate Hwt; try (destruct k; try discriminate Hwt); reflexivity]).
    (* OCryptT carries no kind tag *)
    all: try match goal with |- context [OCryptT] => remember MK as k in Hwt end.
    all: by_kind k w id L; unfold step; rewrite L;
      first [ reflexivity
            | unfold ctr_init, par_init, alloc; destruct (N.eqb _ 1); reflexivity ].
Qed.

Print Assumptions invalid_changes_nothing.
Print Assumptions valid_returns_1.
Print Assumptions history_without_invalid.
Print Assumptions illtyped_is_bad.
Print Assumptions welltyped_no_bad.
Print Assumptions readonly_same_world.
Print Assumptions step_respects_weq.
Print Assumptions distinct_objects_commute.
Print Assumptions interleaving_independent.
