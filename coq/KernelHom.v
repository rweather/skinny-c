(* KernelHom.v — every specification step X of KernelSpecs.v commutes with a homomorphism h of bit carriers,
   hm (X m) = X (hm m) ([X_homG], here and in KernelHom2/3.v); [X_hom] is the instance h = peval rho as the premise
   [spec_hom sizes (X poly ..) (X bool ..)] of IRCheck.check_kernel_sound / check_segments ([X_homU] in WholeSpecs.v:
   the same without [sizes]); and the two layers in which the round bodies are cut compose to the full round. *)
From Coq Require Import List.
From Skinny Require Import ListFacts Bits SpecSkinny SpecMantis IR Anf IRCheck KernelSpecs.
Import ListNotations.

(* A map g of cells, lifted to rows and states, commutes with the state-level functions of the specifications. *)
Section StateHom.
  Variables C1 C2 : Type.
  Variable g : C1 -> C2.

  Definition rmapS (r : row C1) : row C2 := let '(a, b, c, d) := r in (g a, g b, g c, g d).
  Definition smapS (s : state C1) : state C2 :=
    let '(s0, s1, s2, s3) := s in (rmapS s0, rmapS s1, rmapS s2, rmapS s3).

  Variable cx1 : C1 -> C1 -> C1.
  Variable cx2 : C2 -> C2 -> C2.
  Hypothesis g_cx : forall a b, g (cx1 a b) = cx2 (g a) (g b).

  (* The functions built from row operations are handled row by row: the cells stay abstract. *)
  Lemma rmapS_rx : forall a b, rmapS (rx C1 cx1 a b) = rx C2 cx2 (rmapS a) (rmapS b).
  Proof. intros a b. d4 a. d4 b. repeat apply (f_equal2 pair); apply g_cx. Qed.

  Lemma smapS_smap : forall f1 f2, (forall x, g (f1 x) = f2 (g x)) ->
    forall s, smapS (smap C1 f1 s) = smap C2 f2 (smapS s).
  Proof. intros f1 f2 H s. dstate s. repeat apply (f_equal2 pair); apply H. Qed.

  Lemma smapS_shift_rows : forall s, smapS (shift_rows C1 s) = shift_rows C2 (smapS s).
  Proof. intros s. dstate s. reflexivity. Qed.
  Lemma smapS_shift_rows_inv : forall s, smapS (shift_rows_inv C1 s) = shift_rows_inv C2 (smapS s).
  Proof. intros s. dstate s. reflexivity. Qed.
  Lemma smapS_permute_tk : forall s, smapS (permute_tk C1 s) = permute_tk C2 (smapS s).
  Proof. intros s. dstate s. reflexivity. Qed.
  Lemma smapS_h_perm : forall s, smapS (h_perm C1 s) = h_perm C2 (smapS s).
  Proof. intros s. dstate s. reflexivity. Qed.
  Lemma smapS_h_perm_inv : forall s, smapS (h_perm_inv C1 s) = h_perm_inv C2 (smapS s).
  Proof. intros s. dstate s. reflexivity. Qed.
  Lemma smapS_permute_cells : forall s, smapS (permute_cells C1 s) = permute_cells C2 (smapS s).
  Proof. intros s. dstate s. reflexivity. Qed.
  Lemma smapS_permute_cells_inv : forall s, smapS (permute_cells_inv C1 s) = permute_cells_inv C2 (smapS s).
  Proof. intros s. dstate s. reflexivity. Qed.

  Lemma smapS_mix_columns : forall s, smapS (mix_columns C1 cx1 s) = mix_columns C2 cx2 (smapS s).
  Proof. intros s. d4 s. cbv [smapS mix_columns]. rewrite !rmapS_rx. reflexivity. Qed.
  Lemma smapS_mix_columns_inv : forall s, smapS (mix_columns_inv C1 cx1 s) = mix_columns_inv C2 cx2 (smapS s).
  Proof. intros s. d4 s. cbv [smapS mix_columns_inv]. rewrite !rmapS_rx. reflexivity. Qed.
  Lemma smapS_mix : forall s, smapS (mix C1 cx1 s) = mix C2 cx2 (smapS s).
  Proof. intros s. d4 s. cbv [smapS mix]. rewrite !rmapS_rx. reflexivity. Qed.
  Lemma smapS_sx : forall s t, smapS (sx C1 cx1 s t) = sx C2 cx2 (smapS s) (smapS t).
  Proof. intros s t. d4 s. d4 t. repeat apply (f_equal2 pair); apply rmapS_rx. Qed.

  Definition hmapS (k : row C1 * row C1) : row C2 * row C2 := (rmapS (fst k), rmapS (snd k)).
  Lemma smapS_add_round_tweakey : forall k s,
    smapS (add_round_tweakey C1 cx1 k s) = add_round_tweakey C2 cx2 (hmapS k) (smapS s).
  Proof. intros k s. d4 s. cbv [smapS hmapS add_round_tweakey fst snd]. rewrite !rmapS_rx. reflexivity. Qed.
  Lemma smapS_add_c2 : forall c s, smapS (add_c2_ cx1 c s) = add_c2_ cx2 (g c) (smapS s).
  Proof. intros c s. dstate s. cbv [smapS rmapS add_c2_]. rewrite !g_cx. reflexivity. Qed.
End StateHom.

(* A homomorphism h of bit carriers, lifted to cells (h4, h8), bytes, regions and memories, commutes with the
   cell functions, the byte <-> cell conversions and the kernel specification steps. *)
Section CarrierHom.
  Variables B1 B2 : Type.
  Variables (bx1 ba1 : B1 -> B1 -> B1) (z1 o1 : B1).
  Variables (bx2 ba2 : B2 -> B2 -> B2) (z2 o2 : B2).
  Variable h : B1 -> B2.
  Hypothesis h_bx : forall a b, h (bx1 a b) = bx2 (h a) (h b).
  Hypothesis h_ba : forall a b, h (ba1 a b) = ba2 (h a) (h b).
  Hypothesis h_z : h z1 = z2.
  Hypothesis h_o : h o1 = o2.

  Definition h4 (x : c4 B1) : c4 B2 := let '(x3, x2, x1, x0) := x in (h x3, h x2, h x1, h x0).
  Definition h8 (x : c8 B1) : c8 B2 :=
    let '(x7, x6, x5, x4, x3, x2, x1, x0) := x in (h x7, h x6, h x5, h x4, h x3, h x2, h x1, h x0).

  Lemma h8_cx8 : forall a b, h8 (cx8 B1 bx1 a b) = cx8 B2 bx2 (h8 a) (h8 b).
  Proof. intros a b. d8 a. d8 b. repeat apply (f_equal2 pair); apply h_bx. Qed.
  Lemma h4_cx4 : forall a b, h4 (cx4 B1 bx1 a b) = cx4 B2 bx2 (h4 a) (h4 b).
  Proof. intros a b. d4 a. d4 b. repeat apply (f_equal2 pair); apply h_bx. Qed.

  (* the S-boxes, layer by layer as SpecSkinny.v composes them *)
  Lemma h_bnor : forall a b, h (bnor B1 bx1 ba1 o1 a b) = bnor B2 bx2 ba2 o2 (h a) (h b).
  Proof. intros a b. unfold bnor, bnot. rewrite h_ba, !h_bx, h_o. reflexivity. Qed.
  Lemma h8_s8_step : forall x, h8 (s8_step B1 bx1 ba1 o1 x) = s8_step B2 bx2 ba2 o2 (h8 x).
  Proof. intros x. d8 x. cbv [h8 s8_step]. rewrite !h_bx, !h_bnor. reflexivity. Qed.
  Lemma h8_s8_perm : forall x, h8 (s8_perm B1 x) = s8_perm B2 (h8 x).
  Proof. intros x. d8 x. reflexivity. Qed.
  Lemma h8_s8_perm_inv : forall x, h8 (s8_perm_inv B1 x) = s8_perm_inv B2 (h8 x).
  Proof. intros x. d8 x. reflexivity. Qed.
  Lemma h8_s8_swap : forall x, h8 (s8_swap B1 x) = s8_swap B2 (h8 x).
  Proof. intros x. d8 x. reflexivity. Qed.
  Lemma h8_S8 : forall x, h8 (S8 B1 bx1 ba1 o1 x) = S8 B2 bx2 ba2 o2 (h8 x).
  Proof.
    intros x. unfold S8. rewrite h8_s8_swap. do 3 rewrite h8_s8_step, h8_s8_perm.
    rewrite h8_s8_step. reflexivity.
  Qed.
  Lemma h8_S8inv : forall x, h8 (S8inv B1 bx1 ba1 o1 x) = S8inv B2 bx2 ba2 o2 (h8 x).
  Proof.
    intros x. unfold S8inv. do 3 rewrite h8_s8_step, h8_s8_perm_inv.
    rewrite h8_s8_step, h8_s8_swap. reflexivity.
  Qed.
  Lemma h4_s4_step : forall x, h4 (s4_step B1 bx1 ba1 o1 x) = s4_step B2 bx2 ba2 o2 (h4 x).
  Proof. intros x. d4 x. cbv [h4 s4_step]. rewrite h_bx, h_bnor. reflexivity. Qed.
  Lemma h4_s4_rot : forall x, h4 (s4_rot B1 x) = s4_rot B2 (h4 x).
  Proof. intros x. d4 x. reflexivity. Qed.
  Lemma h4_s4_rot_inv : forall x, h4 (s4_rot_inv B1 x) = s4_rot_inv B2 (h4 x).
  Proof. intros x. d4 x. reflexivity. Qed.
  Lemma h4_S4 : forall x, h4 (S4 B1 bx1 ba1 o1 x) = S4 B2 bx2 ba2 o2 (h4 x).
  Proof. intros x. unfold S4. do 3 rewrite h4_s4_step, h4_s4_rot. rewrite h4_s4_step. reflexivity. Qed.
  Lemma h4_S4inv : forall x, h4 (S4inv B1 bx1 ba1 o1 x) = S4inv B2 bx2 ba2 o2 (h4 x).
  Proof. intros x. unfold S4inv. do 3 rewrite h4_s4_step, h4_s4_rot_inv. rewrite h4_s4_step. reflexivity. Qed.
  Lemma h4_Sb0 : forall x, h4 (Sb0 B1 bx1 ba1 o1 x) = Sb0 B2 bx2 ba2 o2 (h4 x).
  Proof.
    intros x. d4 x. cbv [h4 Sb0 bnor bnand bor bnot].
    repeat f_equal; repeat (rewrite h_bx || rewrite h_ba || rewrite h_o); reflexivity.
  Qed.
  Lemma h8_lfsr2 : forall x, h8 (lfsr2_8 B1 bx1 x) = lfsr2_8 B2 bx2 (h8 x).
  Proof. intros x. d8 x. cbv [h8 lfsr2_8]. rewrite !h_bx. reflexivity. Qed.
  Lemma h8_lfsr3 : forall x, h8 (lfsr3_8 B1 bx1 x) = lfsr3_8 B2 bx2 (h8 x).
  Proof. intros x. d8 x. cbv [h8 lfsr3_8]. rewrite !h_bx. reflexivity. Qed.
  Lemma h4_lfsr2 : forall x, h4 (lfsr2_4 B1 bx1 x) = lfsr2_4 B2 bx2 (h4 x).
  Proof. intros x. d4 x. cbv [h4 lfsr2_4]. rewrite !h_bx. reflexivity. Qed.
  Lemma h4_lfsr3 : forall x, h4 (lfsr3_4 B1 bx1 x) = lfsr3_4 B2 bx2 (h4 x).
  Proof. intros x. d4 x. cbv [h4 lfsr3_4]. rewrite !h_bx. reflexivity. Qed.

  Lemma h_bconst : forall b, h (bconst B1 z1 o1 b) = bconst B2 z2 o2 b.
  Proof. intros []; assumption. Qed.
  Lemma h8_c8nib : forall a b c d, h8 (c8nib B1 z1 o1 a b c d) = c8nib B2 z2 o2 a b c d.
  Proof. intros a b c d. cbv [h8 c8nib]. rewrite !h_bconst, !h_z. reflexivity. Qed.
  Lemma h4_c4nib : forall a b c d, h4 (c4nib B1 z1 o1 a b c d) = c4nib B2 z2 o2 a b c d.
  Proof. intros a b c d. cbv [h4 c4nib]. rewrite !h_bconst. reflexivity. Qed.
  Lemma h8_z8 : h8 (z8 B1 z1) = z8 B2 z2.
  Proof. cbv [h8 z8 c8zero]. rewrite !h_z. reflexivity. Qed.

  Lemma h4_c8hi : forall x, h4 (c8hi x) = c8hi (h8 x).
  Proof. intros x. d8 x. reflexivity. Qed.
  Lemma h4_c8lo : forall x, h4 (c8lo x) = c8lo (h8 x).
  Proof. intros x. d8 x. reflexivity. Qed.
  Lemma h8_c8join : forall a b, h8 (c8join a b) = c8join (h4 a) (h4 b).
  Proof. intros a b. d4 a. d4 b. reflexivity. Qed.

  Lemma nth_map_z : forall i l, nth i (map h l) z2 = h (nth i l z1).
  Proof. intros i l. apply nth_map_d, h_z. Qed.
  Lemma h8_c8_of_bits : forall l, h8 (c8_of_bits B1 z1 l) = c8_of_bits B2 z2 (map h l).
  Proof. intros l. cbv [h8 c8_of_bits]. rewrite !nth_map_z. reflexivity. Qed.
  Lemma map_bits_of_c8 : forall x, map h (bits_of_c8 B1 x) = bits_of_c8 B2 (h8 x).
  Proof. intros x. d8 x. reflexivity. Qed.

  Lemma on_byte8_homG : forall f1 f2, (forall x, h8 (f1 x) = f2 (h8 x)) ->
    forall l, map h (on_byte8 B1 z1 f1 l) = on_byte8 B2 z2 f2 (map h l).
  Proof.
    intros f1 f2 Hf l. unfold on_byte8. rewrite map_bits_of_c8, Hf, h8_c8_of_bits. reflexivity.
  Qed.
  Lemma on_byte4_homG : forall f1 f2, (forall x, h4 (f1 x) = f2 (h4 x)) ->
    forall l, map h (on_byte4 B1 z1 f1 l) = on_byte4 B2 z2 f2 (map h l).
  Proof.
    intros f1 f2 Hf l. unfold on_byte4. cbv zeta.
    rewrite map_bits_of_c8, h8_c8join, !Hf, h4_c8hi, h4_c8lo, h8_c8_of_bits. reflexivity.
  Qed.

  Notation hb := (map (map h)).
  Notation hm := (map (map (map h))).

  Lemma reg_homG : forall (m : mem B1) r, reg B2 (hm m) r = hb (reg B1 m r).
  Proof. intros m r. exact (nth_hm B1 B2 h r m). Qed.

  (* regions <-> lists of 8-bit cells <-> states *)
  Lemma cells_of_hb : forall bytes,
    map (c8_of_bits B2 z2) (hb bytes) = map h8 (map (c8_of_bits B1 z1) bytes).
  Proof. intros bytes. rewrite !map_map. apply map_ext. intros l. symmetry. apply h8_c8_of_bits. Qed.
  Lemma hb_bits_of_cells : forall l, hb (map (bits_of_c8 B1) l) = map (bits_of_c8 B2) (map h8 l).
  Proof. intros l. rewrite !map_map. apply map_ext, map_bits_of_c8. Qed.
  Lemma nth_cell_homG : forall i l, nth i (map h8 l) (z8 B2 z2) = h8 (nth i l (z8 B1 z1)).
  Proof. intros i l. apply nth_map_d, h8_z8. Qed.

  Lemma state128_of_bytes_homG : forall l,
    smapS _ _ h8 (state128_of_bytes B1 z1 l) = state128_of_bytes B2 z2 (map h8 l).
  Proof. intros l. symmetry. repeat apply (f_equal2 pair); apply nth_cell_homG. Qed.
  Lemma state64_of_bytes_homG : forall l,
    smapS _ _ h4 (state64_of_bytes B1 z1 l) = state64_of_bytes B2 z2 (map h8 l).
  Proof.
    intros l. repeat apply (f_equal2 pair); rewrite nth_cell_homG; auto using h4_c8hi, h4_c8lo.
  Qed.
  Lemma bytes_of_state128_homG : forall s,
    map h8 (bytes_of_state128 B1 s) = bytes_of_state128 B2 (smapS _ _ h8 s).
  Proof. intros s. dstate s. reflexivity. Qed.
  Lemma bytes_of_state64_homG : forall s,
    map h8 (bytes_of_state64 B1 s) = bytes_of_state64 B2 (smapS _ _ h4 s).
  Proof.
    intros s. dstate s. cbv [bytes_of_state64 row_bytes64 smapS rmapS app map].
    rewrite !h8_c8join. reflexivity.
  Qed.

  Lemma state128_of_reg_homG : forall bytes,
    smapS _ _ h8 (state128_of_reg B1 z1 bytes) = state128_of_reg B2 z2 (hb bytes).
  Proof. intros bytes. unfold state128_of_reg. rewrite cells_of_hb. apply state128_of_bytes_homG. Qed.
  Lemma state64_of_reg_homG : forall bytes,
    smapS _ _ h4 (state64_of_reg B1 z1 bytes) = state64_of_reg B2 z2 (hb bytes).
  Proof. intros bytes. unfold state64_of_reg. rewrite cells_of_hb. apply state64_of_bytes_homG. Qed.
  Lemma reg_of_state128_homG : forall s,
    hb (reg_of_state128 B1 s) = reg_of_state128 B2 (smapS _ _ h8 s).
  Proof. intros s. unfold reg_of_state128. rewrite hb_bits_of_cells, bytes_of_state128_homG. reflexivity. Qed.
  Lemma reg_of_state64_homG : forall s,
    hb (reg_of_state64 B1 s) = reg_of_state64 B2 (smapS _ _ h4 s).
  Proof. intros s. unfold reg_of_state64. rewrite hb_bits_of_cells, bytes_of_state64_homG. reflexivity. Qed.
  Lemma half128_of_reg_homG : forall bytes,
    hmapS _ _ h8 (half128_of_reg B1 z1 bytes) = half128_of_reg B2 z2 (hb bytes).
  Proof.
    intros bytes. cbv [half128_of_reg hmapS rmapS fst snd].
    rewrite !(nth_loc_hom B1 B2 h), <- !h8_c8_of_bits. reflexivity.
  Qed.
  Lemma half64_of_reg_homG : forall bytes,
    hmapS _ _ h4 (half64_of_reg B1 z1 bytes) = half64_of_reg B2 z2 (hb bytes).
  Proof.
    intros bytes. cbv [half64_of_reg hmapS rmapS fst snd].
    rewrite !(nth_loc_hom B1 B2 h), <- !h8_c8_of_bits, !h4_c8hi, !h4_c8lo. reflexivity.
  Qed.

  Lemma spec_bytemap_homG : forall f1 f2, (forall l, map h (f1 l) = f2 (map h l)) ->
    forall m, hm (spec_bytemap B1 f1 m) = spec_bytemap B2 f2 (hm m).
  Proof.
    intros f1 f2 Hf m. unfold spec_bytemap. rewrite reg_homG. cbn [map].
    f_equal. f_equal. rewrite !map_map. apply map_ext, Hf.
  Qed.
  Lemma spec_cells128_homG : forall f1 f2, (forall s, smapS _ _ h8 (f1 s) = f2 (smapS _ _ h8 s)) ->
    forall m, hm (spec_cells128 B1 z1 f1 m) = spec_cells128 B2 z2 f2 (hm m).
  Proof.
    intros f1 f2 Hf m. unfold spec_cells128. cbn [map].
    rewrite reg_homG, reg_of_state128_homG, Hf, state128_of_reg_homG. reflexivity.
  Qed.
  Lemma spec_cells64_homG : forall f1 f2, (forall s, smapS _ _ h4 (f1 s) = f2 (smapS _ _ h4 s)) ->
    forall m, hm (spec_cells64 B1 z1 f1 m) = spec_cells64 B2 z2 f2 (hm m).
  Proof.
    intros f1 f2 Hf m. unfold spec_cells64. cbn [map].
    rewrite reg_homG, reg_of_state64_homG, Hf, state64_of_reg_homG. reflexivity.
  Qed.

  (* the S-box layers of the round bodies: a cell map on the state in region 0, region 1 (the schedule word) as it is *)
  Lemma smap128_keep_homG : forall f1 f2, (forall x, h8 (f1 x) = f2 (h8 x)) ->
    forall m, hm [reg_of_state128 B1 (smap _ f1 (state128_of_reg B1 z1 (reg B1 m 0))); reg B1 m 1]
            = [reg_of_state128 B2 (smap _ f2 (state128_of_reg B2 z2 (reg B2 (hm m) 0))); reg B2 (hm m) 1].
  Proof.
    intros f1 f2 Hf m. cbn [map].
    rewrite !reg_homG, reg_of_state128_homG, (smapS_smap _ _ h8 _ _ Hf), state128_of_reg_homG. reflexivity.
  Qed.
  Lemma smap64_keep_homG : forall f1 f2, (forall x, h4 (f1 x) = f2 (h4 x)) ->
    forall m, hm [reg_of_state64 B1 (smap _ f1 (state64_of_reg B1 z1 (reg B1 m 0))); reg B1 m 1]
            = [reg_of_state64 B2 (smap _ f2 (state64_of_reg B2 z2 (reg B2 (hm m) 0))); reg B2 (hm m) 1].
  Proof.
    intros f1 f2 Hf m. cbn [map].
    rewrite !reg_homG, reg_of_state64_homG, (smapS_smap _ _ h4 _ _ Hf), state64_of_reg_homG. reflexivity.
  Qed.
  Lemma k128_subcells_homG : forall m,
    hm (k128_subcells B1 bx1 ba1 z1 o1 m) = k128_subcells B2 bx2 ba2 z2 o2 (hm m).
  Proof. exact (smap128_keep_homG _ _ h8_S8). Qed.
  Lemma k128_subcells_inv_homG : forall m,
    hm (k128_subcells_inv B1 bx1 ba1 z1 o1 m) = k128_subcells_inv B2 bx2 ba2 z2 o2 (hm m).
  Proof. exact (smap128_keep_homG _ _ h8_S8inv). Qed.
  Lemma k64_subcells_homG : forall m,
    hm (k64_subcells B1 bx1 ba1 z1 o1 m) = k64_subcells B2 bx2 ba2 z2 o2 (hm m).
  Proof. exact (smap64_keep_homG _ _ h4_S4). Qed.
  Lemma k64_subcells_inv_homG : forall m,
    hm (k64_subcells_inv B1 bx1 ba1 z1 o1 m) = k64_subcells_inv B2 bx2 ba2 z2 o2 (hm m).
  Proof. exact (smap64_keep_homG _ _ h4_S4inv). Qed.

  Lemma k128_enc_linear_homG : forall m,
    hm (k128_enc_linear B1 bx1 z1 o1 m) = k128_enc_linear B2 bx2 z2 o2 (hm m).
  Proof.
    intros m. unfold k128_enc_linear. cbn [map]. rewrite !reg_homG, reg_of_state128_homG.
    rewrite (smapS_mix_columns _ _ h8 _ _ h8_cx8), smapS_shift_rows.
    rewrite (smapS_add_c2 _ _ h8 _ _ h8_cx8), (smapS_add_round_tweakey _ _ h8 _ _ h8_cx8).
    unfold nib8. rewrite h8_c8nib, half128_of_reg_homG, state128_of_reg_homG. reflexivity.
  Qed.
  Lemma k128_dec_linear_homG : forall m,
    hm (k128_dec_linear B1 bx1 z1 o1 m) = k128_dec_linear B2 bx2 z2 o2 (hm m).
  Proof.
    intros m. unfold k128_dec_linear. cbn [map]. rewrite !reg_homG, reg_of_state128_homG.
    rewrite (smapS_add_c2 _ _ h8 _ _ h8_cx8), (smapS_add_round_tweakey _ _ h8 _ _ h8_cx8).
    rewrite smapS_shift_rows_inv, (smapS_mix_columns_inv _ _ h8 _ _ h8_cx8).
    unfold nib8. rewrite h8_c8nib, half128_of_reg_homG, state128_of_reg_homG. reflexivity.
  Qed.
  Lemma k64_enc_linear_homG : forall m,
    hm (k64_enc_linear B1 bx1 z1 o1 m) = k64_enc_linear B2 bx2 z2 o2 (hm m).
  Proof.
    intros m. unfold k64_enc_linear. cbn [map]. rewrite !reg_homG, reg_of_state64_homG.
    rewrite (smapS_mix_columns _ _ h4 _ _ h4_cx4), smapS_shift_rows.
    rewrite (smapS_add_c2 _ _ h4 _ _ h4_cx4), (smapS_add_round_tweakey _ _ h4 _ _ h4_cx4).
    unfold nib4. rewrite h4_c4nib, half64_of_reg_homG, state64_of_reg_homG. reflexivity.
  Qed.
  Lemma k64_dec_linear_homG : forall m,
    hm (k64_dec_linear B1 bx1 z1 o1 m) = k64_dec_linear B2 bx2 z2 o2 (hm m).
  Proof.
    intros m. unfold k64_dec_linear. cbn [map]. rewrite !reg_homG, reg_of_state64_homG.
    rewrite (smapS_add_c2 _ _ h4 _ _ h4_cx4), (smapS_add_round_tweakey _ _ h4 _ _ h4_cx4).
    rewrite smapS_shift_rows_inv, (smapS_mix_columns_inv _ _ h4 _ _ h4_cx4).
    unfold nib4. rewrite h4_c4nib, half64_of_reg_homG, state64_of_reg_homG. reflexivity.
  Qed.

  Lemma word_bytes_homG : forall f1 f2, (forall l, map h (f1 l) = f2 (map h l)) ->
    forall bits, map h (word_bytes B1 z1 f1 bits) = word_bytes B2 z2 f2 (map h bits).
  Proof.
    intros f1 f2 Hf bits. unfold word_bytes.
    rewrite concat_map, map_map, map_length, <- (bytes_of_hom B1 B2 z1 z2 h h_z), map_map. f_equal.
    apply map_ext, Hf.
  Qed.
  Lemma callf_spec_homG : forall f l,
    map h (callf_spec B1 bx1 ba1 z1 o1 f l) = callf_spec B2 bx2 ba2 z2 o2 f (map h l).
  Proof.
    intros f l. destruct f as [|[|[|[|[|f]]]]]; [apply word_bytes_homG ..|reflexivity].
    - apply on_byte8_homG. exact h8_S8.
    - apply on_byte8_homG. exact h8_S8inv.
    - apply on_byte4_homG. exact h4_S4.
    - apply on_byte4_homG. exact h4_S4inv.
    - apply on_byte4_homG. exact h4_Sb0.
  Qed.
End CarrierHom.

(* The instance h = peval rho.  The steps commute with evaluation on every memory, so the [shaped] premise of
   [spec_hom] is dropped: [hom_intro] exposes the two-carrier goal, [hom_side] discharges the premises on h, which
   are peval_pxor, peval_pand, peval rho pzero = false and peval rho pone = true (both by computation);
   [hom_by L1, .., Ln] (n <= 3) applies the two-carrier lemmas L1, .., Ln between the two. *)
Ltac hom_intro := intros sizes rho m _; unfold mmap, vmap.
Ltac hom_side := intros; first [apply peval_pxor | apply peval_pand | reflexivity].
Tactic Notation "hom_by" constr(L1) := hom_intro; apply L1; hom_side.
Tactic Notation "hom_by" constr(L1) "," constr(L2) := hom_intro; apply L1, L2; hom_side.
Tactic Notation "hom_by" constr(L1) "," constr(L2) "," constr(L3) := hom_intro; apply L1, L2, L3; hom_side.

Lemma k_sbox128_hom : forall sizes,
  spec_hom sizes (k_sbox128 poly pxor pand pzero pone) (k_sbox128 bool xorb andb false true).
Proof. hom_by spec_bytemap_homG, on_byte8_homG, h8_S8. Qed.
Lemma k_inv_sbox128_hom : forall sizes,
  spec_hom sizes (k_inv_sbox128 poly pxor pand pzero pone) (k_inv_sbox128 bool xorb andb false true).
Proof. hom_by spec_bytemap_homG, on_byte8_homG, h8_S8inv. Qed.
Lemma k_sbox64_hom : forall sizes,
  spec_hom sizes (k_sbox64 poly pxor pand pzero pone) (k_sbox64 bool xorb andb false true).
Proof. hom_by spec_bytemap_homG, on_byte4_homG, h4_S4. Qed.
Lemma k_inv_sbox64_hom : forall sizes,
  spec_hom sizes (k_inv_sbox64 poly pxor pand pzero pone) (k_inv_sbox64 bool xorb andb false true).
Proof. hom_by spec_bytemap_homG, on_byte4_homG, h4_S4inv. Qed.
Lemma k_mantis_sbox_hom : forall sizes,
  spec_hom sizes (k_mantis_sbox poly pxor pand pzero pone) (k_mantis_sbox bool xorb andb false true).
Proof. hom_by spec_bytemap_homG, on_byte4_homG, h4_Sb0. Qed.
Lemma k_lfsr2_128_hom : forall sizes,
  spec_hom sizes (k_lfsr2_128 poly pxor pzero) (k_lfsr2_128 bool xorb false).
Proof. hom_by spec_bytemap_homG, on_byte8_homG, h8_lfsr2. Qed.
Lemma k_lfsr3_128_hom : forall sizes,
  spec_hom sizes (k_lfsr3_128 poly pxor pzero) (k_lfsr3_128 bool xorb false).
Proof. hom_by spec_bytemap_homG, on_byte8_homG, h8_lfsr3. Qed.
Lemma k_lfsr2_64_hom : forall sizes,
  spec_hom sizes (k_lfsr2_64 poly pxor pzero) (k_lfsr2_64 bool xorb false).
Proof. hom_by spec_bytemap_homG, on_byte4_homG, h4_lfsr2. Qed.
Lemma k_lfsr3_64_hom : forall sizes,
  spec_hom sizes (k_lfsr3_64 poly pxor pzero) (k_lfsr3_64 bool xorb false).
Proof. hom_by spec_bytemap_homG, on_byte4_homG, h4_lfsr3. Qed.
Lemma k_permute_tk128_hom : forall sizes,
  spec_hom sizes (k_permute_tk128 poly pzero) (k_permute_tk128 bool false).
Proof. hom_by spec_cells128_homG, smapS_permute_tk. Qed.
Lemma k_permute_tk64_hom : forall sizes,
  spec_hom sizes (k_permute_tk64 poly pzero) (k_permute_tk64 bool false).
Proof. hom_by spec_cells64_homG, smapS_permute_tk. Qed.
Lemma k_mantis_h_hom : forall sizes,
  spec_hom sizes (k_mantis_h poly pzero) (k_mantis_h bool false).
Proof. hom_by spec_cells64_homG, smapS_h_perm. Qed.
Lemma k_mantis_h_inv_hom : forall sizes,
  spec_hom sizes (k_mantis_h_inv poly pzero) (k_mantis_h_inv bool false).
Proof. hom_by spec_cells64_homG, smapS_h_perm_inv. Qed.
Lemma k_mantis_P_hom : forall sizes,
  spec_hom sizes (k_mantis_P poly pzero) (k_mantis_P bool false).
Proof. hom_by spec_cells64_homG, smapS_permute_cells. Qed.
Lemma k_mantis_P_inv_hom : forall sizes,
  spec_hom sizes (k_mantis_P_inv poly pzero) (k_mantis_P_inv bool false).
Proof. hom_by spec_cells64_homG, smapS_permute_cells_inv. Qed.
Lemma k_mantis_mix_hom : forall sizes,
  spec_hom sizes (k_mantis_mix poly pxor pzero) (k_mantis_mix bool xorb false).
Proof. hom_by spec_cells64_homG, smapS_mix, h4_cx4. Qed.
Lemma k128_subcells_hom : forall sizes,
  spec_hom sizes (k128_subcells poly pxor pand pzero pone) (k128_subcells bool xorb andb false true).
Proof. hom_by k128_subcells_homG. Qed.
Lemma k128_subcells_inv_hom : forall sizes,
  spec_hom sizes (k128_subcells_inv poly pxor pand pzero pone) (k128_subcells_inv bool xorb andb false true).
Proof. hom_by k128_subcells_inv_homG. Qed.
Lemma k128_enc_linear_hom : forall sizes,
  spec_hom sizes (k128_enc_linear poly pxor pzero pone) (k128_enc_linear bool xorb false true).
Proof. hom_by k128_enc_linear_homG. Qed.
Lemma k128_dec_linear_hom : forall sizes,
  spec_hom sizes (k128_dec_linear poly pxor pzero pone) (k128_dec_linear bool xorb false true).
Proof. hom_by k128_dec_linear_homG. Qed.
Lemma k64_subcells_hom : forall sizes,
  spec_hom sizes (k64_subcells poly pxor pand pzero pone) (k64_subcells bool xorb andb false true).
Proof. hom_by k64_subcells_homG. Qed.
Lemma k64_subcells_inv_hom : forall sizes,
  spec_hom sizes (k64_subcells_inv poly pxor pand pzero pone) (k64_subcells_inv bool xorb andb false true).
Proof. hom_by k64_subcells_inv_homG. Qed.
Lemma k64_enc_linear_hom : forall sizes,
  spec_hom sizes (k64_enc_linear poly pxor pzero pone) (k64_enc_linear bool xorb false true).
Proof. hom_by k64_enc_linear_homG. Qed.
Lemma k64_dec_linear_hom : forall sizes,
  spec_hom sizes (k64_dec_linear poly pxor pzero pone) (k64_dec_linear bool xorb false true).
Proof. hom_by k64_dec_linear_homG. Qed.

Lemma callf_spec_hom :
  call_hom (callf_spec poly pxor pand pzero pone) (callf_spec bool xorb andb false true).
Proof.
  intros rho f l. unfold vmap. apply callf_spec_homG; hom_side.
Qed.

(* Codec laws of the byte <-> cell conversions, on any carrier. *)
Section Codec.
  Variable B : Type.
  Variable b0 : B.

  Lemma c8_of_bits_of_c8 : forall x, c8_of_bits B b0 (bits_of_c8 B x) = x.
  Proof. intros x. d8 x. reflexivity. Qed.
  Lemma cells_of_bits_of_cells : forall l : list (c8 B), map (c8_of_bits B b0) (map (bits_of_c8 B) l) = l.
  Proof. intros l. rewrite map_map, (map_ext _ (fun x => x) c8_of_bits_of_c8). apply map_id. Qed.
  Lemma state128_of_reg_of_state128 : forall s, state128_of_reg B b0 (reg_of_state128 B s) = s.
  Proof.
    intros s. unfold state128_of_reg, reg_of_state128. rewrite cells_of_bits_of_cells.
    dstate s. reflexivity.
  Qed.
  Lemma state64_of_reg_of_state64 : forall s, state64_of_reg B b0 (reg_of_state64 B s) = s.
  Proof.
    intros s. unfold state64_of_reg, reg_of_state64. rewrite cells_of_bits_of_cells.
    dstate s. cbv [bytes_of_state64 row_bytes64 app state64_of_bytes nth].
    repeat apply (f_equal2 pair); auto using c8hi_join, c8lo_join.
  Qed.
End Codec.

(* The two layers in which a round body is cut compose to the round (on the bool carrier, where
   KernelBridge.v uses it): the second layer reads back the state the first one wrote.
   Encryption round = linear layer after SubCells; decryption round = SubCells^-1 after the linear layer.
   The right-hand sides are ModelCipher.enc_round / dec_round written out with the carrier's own S-box and
   constant, read from and written back to the two regions. *)
Lemma k128_round_is_spec_bool : forall m : mem bool,
  k128_enc_linear bool xorb false true (k128_subcells bool xorb andb false true m) =
  [reg_of_state128 bool
     (mix_columns byte (cx8 bool xorb) (shift_rows byte
        (add_c2_ (cx8 bool xorb) (nib8 bool false true false false true false)
           (add_round_tweakey byte (cx8 bool xorb) (half128_of_reg bool false (reg bool m 1))
              (sub_cells byte (S8_ bool xorb andb true) (state128_of_reg bool false (reg bool m 0)))))));
   reg bool m 1].
Proof.
  intros m. unfold k128_enc_linear, k128_subcells.
  cbn [reg nth]. rewrite state128_of_reg_of_state128. reflexivity.
Qed.
Lemma k128_round_inv_is_spec_bool : forall m : mem bool,
  k128_subcells_inv bool xorb andb false true (k128_dec_linear bool xorb false true m) =
  [reg_of_state128 bool
     (sub_cells_inv byte (S8inv_ bool xorb andb true)
        (add_c2_ (cx8 bool xorb) (nib8 bool false true false false true false)
           (add_round_tweakey byte (cx8 bool xorb) (half128_of_reg bool false (reg bool m 1))
              (shift_rows_inv byte (mix_columns_inv byte (cx8 bool xorb)
                 (state128_of_reg bool false (reg bool m 0)))))));
   reg bool m 1].
Proof.
  intros m. unfold k128_dec_linear, k128_subcells_inv.
  cbn [reg nth]. rewrite state128_of_reg_of_state128. reflexivity.
Qed.
Lemma k64_round_is_spec_bool : forall m : mem bool,
  k64_enc_linear bool xorb false true (k64_subcells bool xorb andb false true m) =
  [reg_of_state64 bool
     (mix_columns nib (cx4 bool xorb) (shift_rows nib
        (add_c2_ (cx4 bool xorb) (nib4 bool false true false false true false)
           (add_round_tweakey nib (cx4 bool xorb) (half64_of_reg bool false (reg bool m 1))
              (sub_cells nib (S4_ bool xorb andb true) (state64_of_reg bool false (reg bool m 0)))))));
   reg bool m 1].
Proof.
  intros m. unfold k64_enc_linear, k64_subcells.
  cbn [reg nth]. rewrite state64_of_reg_of_state64. reflexivity.
Qed.
Lemma k64_round_inv_is_spec_bool : forall m : mem bool,
  k64_subcells_inv bool xorb andb false true (k64_dec_linear bool xorb false true m) =
  [reg_of_state64 bool
     (sub_cells_inv nib (S4inv_ bool xorb andb true)
        (add_c2_ (cx4 bool xorb) (nib4 bool false true false false true false)
           (add_round_tweakey nib (cx4 bool xorb) (half64_of_reg bool false (reg bool m 1))
              (shift_rows_inv nib (mix_columns_inv nib (cx4 bool xorb)
                 (state64_of_reg bool false (reg bool m 0)))))));
   reg bool m 1].
Proof.
  intros m. unfold k64_dec_linear, k64_subcells_inv.
  cbn [reg nth]. rewrite state64_of_reg_of_state64. reflexivity.
Qed.

Print Assumptions k_sbox128_hom.
Print Assumptions k_inv_sbox128_hom.
Print Assumptions k_sbox64_hom.
Print Assumptions k_inv_sbox64_hom.
Print Assumptions k_mantis_sbox_hom.
Print Assumptions k_lfsr2_128_hom.
Print Assumptions k_lfsr3_128_hom.
Print Assumptions k_lfsr2_64_hom.
Print Assumptions k_lfsr3_64_hom.
Print Assumptions k_permute_tk128_hom.
Print Assumptions k_permute_tk64_hom.
Print Assumptions k_mantis_h_hom.
Print Assumptions k_mantis_h_inv_hom.
Print Assumptions k_mantis_P_hom.
Print Assumptions k_mantis_P_inv_hom.
Print Assumptions k_mantis_mix_hom.
Print Assumptions k128_subcells_hom.
Print Assumptions k128_subcells_inv_hom.
Print Assumptions k128_enc_linear_hom.
Print Assumptions k128_dec_linear_hom.
Print Assumptions k64_subcells_hom.
Print Assumptions k64_subcells_inv_hom.
Print Assumptions k64_enc_linear_hom.
Print Assumptions k64_dec_linear_hom.
Print Assumptions callf_spec_hom.
Print Assumptions k128_round_is_spec_bool.
Print Assumptions k128_round_inv_is_spec_bool.
Print Assumptions k64_round_is_spec_bool.
Print Assumptions k64_round_inv_is_spec_bool.
