(* WholeCompose.v — composing the two whole-function layers INSIDE Coq.  pctr_model / vctr_model_* / ppar_model are stated for
   any interpretation cB of the procedure call that meets a contract ("on (block, key-schedule object) it returns E(block)");
   enc128_final etc. prove, for the callee's own translated code, that running it yields the model's block.  Here the
   interpretation is DEFINED as "run the callee's code in the reference interpreter on a memory built from the argument bits"
   (cB_run) and the contract is PROVED for it from the callee's obligations — so the CTR theorems hold with the call
   interpreted by the callee's real code, not by an assumed function. *)
From Coq Require Import List NArith Arith Lia.
From Skinny Require Import ListFacts Bits IR SIR Anf IRCheck KernelSpecs SIRCheck WholeSpecs SIRProofs ModelCipher
                           ModelCtr WholeBridge WholeKey WholeProc WholeCtr WholeCtrModel.
From Skinny Require ProofsApiCtr.
Import ListNotations.

(* a byte is rebuilt from its 8 bits *)
Lemma bits_of_c8_of_bits8 : forall l : list bool, length l = 8 -> bits_of_c8 bool (c8_of_bits bool false l) = l.
Proof. intros l H. do 8 (destruct l as [|? l]; [discriminate|]). destruct l; [reflexivity | discriminate]. Qed.

(* the interpretation of a block-function call: argument = bs block bytes followed by kn key-schedule bytes *)
Definition cB_run (bs kn : nat) (code : list SIR.sstmt) (fuel : nat) (fno : nat) (bits : list bool) : list bool :=
  let L := bytes_of bool false (bs + kn) bits in
  let m0 : mem bool := [repeat (zbyte bool false) bs; firstn bs L; skipn bs L; repeat (zbyte bool false) bs] in
  match interp [ksf] callB fuel [0; 0; 0]%N (m0, []) code with
  | Some (_, st', _) => concat (nth 0 (fst st') [])
  | None => []
  end.

Lemma decode_arg : forall (blk : list byte) (ks : list (list bool)) bs kn, length blk = bs -> length ks = kn -> bytes8 ks ->
  bytes_of bool false (bs + kn) (concat (bitsB blk) ++ concat ks) = bitsB blk ++ ks.
Proof.
  intros blk ks bs kn Hb Hk H8. rewrite <- concat_app.
  apply bytes_of_concat_n.
  - apply Forall_app. split; [apply bits_len8 | exact H8].
  - rewrite app_length, bitsB_length, Hb, Hk. reflexivity.
Qed.

(* the two regions cB_run / cB_runM build from the decoded argument *)
Lemma decode_arg_split : forall (blk : list byte) (ks : list (list bool)) bs kn, length blk = bs -> length ks = kn -> bytes8 ks ->
  let L := bytes_of bool false (bs + kn) (concat (bitsB blk) ++ concat ks) in firstn bs L = bitsB blk /\ skipn bs L = ks.
Proof.
  intros blk ks bs kn Hb Hk H8. cbv zeta. rewrite (decode_arg blk ks bs kn Hb Hk H8). rewrite <- (bitsB_length blk) in Hb.
  split; [exact (firstn_app_exact _ _ bs Hb) | exact (skipn_app_exact _ _ bs Hb)].
Qed.

(* the header of a key-schedule object after a set_key: the 4 little-endian bytes of the round count (rbytes R is the image
   of 4 bytes), then whatever the object held there before *)
Definition hdrR (R : nat) (tail : list byte) : list byte := map (c8_of_bits bool false) (rbytes R) ++ tail.

Lemma bitsB_hdrR : forall R tail, bitsB (hdrR R tail) = rbytes R ++ bitsB tail.
Proof. intros R tail. unfold hdrR. rewrite map_app. f_equal. Qed.

Lemma hdrR_length : forall R tail, length (hdrR R tail) = 4 + length tail.
Proof. intros R tail. unfold hdrR. rewrite app_length, map_length, rbytes_len. reflexivity. Qed.

Lemma region_prefix : forall kn (pre back : list (list bool)), length pre = kn -> bytes8 pre -> bytes8 back ->
  length (pre ++ back) = kn + length back /\ firstn kn (pre ++ back) = pre /\ bytes8 (pre ++ back).
Proof.
  intros kn pre back Hl Hp Hb. split; [rewrite app_length, Hl; reflexivity|].
  split; [exact (firstn_app_exact pre back kn Hl) | apply Forall_app; split; assumption].
Qed.

(* a schedule object (header with the round count, then the slots) and a block function run on it: what the four
   enc/dec128/64_final theorems have in common, with their constants as variables.  In bytes: bs a block, hl the header,
   sl one schedule slot; ns slots; kn the whole object (sizeof(Skinny128Key_t) = 8 + 56 * 8 = 456, Skinny64Key_t 4 + 40 * 4 = 164) *)
Section BlockOnImage.
  Variables (bs hl sl ns kn : nat) (Slot : Type) (hb : Slot -> list (list bool)).
  Hypothesis hb_len : forall e, length (hb e) = sl.
  Hypothesis hb_len8 : forall e, bytes8 (hb e).
  Hypothesis Hkn : hl + ns * sl = kn.

  Definition imageR (R : nat) (tail : list byte) (sched : list Slot) : list (list bool) :=
    (rbytes R ++ bitsB tail) ++ concat (map hb sched).

  Lemma imageR_ks_image : forall R tail sched, imageR R tail sched = ks_image Slot hb (bitsB (hdrR R tail)) sched.
  Proof. intros R tail sched. unfold imageR, ks_image. rewrite bitsB_hdrR. reflexivity. Qed.

  Lemma imageR_length : forall R tail sched, 4 + length tail = hl -> length sched = ns -> length (imageR R tail sched) = kn.
  Proof.
    intros R tail sched Ht Hs. unfold imageR.
    rewrite !app_length, rbytes_len, bitsB_length, (ListFacts.concat_map_length hb sl hb_len), Ht, Hs. exact Hkn.
  Qed.

  Lemma imageR_bytes8 : forall R tail sched, bytes8 (imageR R tail sched).
  Proof.
    intros R tail sched. unfold imageR. repeat (apply Forall_app; split); [apply bytes_of_bytes8 | apply bits_len8 |].
    apply Forall_concat, Forall_map, Forall_forall. intros e _. apply hb_len8.
  Qed.

  Lemma imageR_firstn : forall R tail sched back, 4 + length tail = hl -> length sched = ns ->
    firstn kn ((rbytes R ++ bitsB tail) ++ concat (map hb sched) ++ back) = imageR R tail sched.
  Proof. intros R tail sched back Ht Hs. rewrite app_assoc. exact (firstn_app_exact _ back kn (imageR_length R tail sched Ht Hs)). Qed.

  Lemma imageR_prefix : forall R tail sched back, 4 + length tail = hl -> length sched = ns -> bytes8 back ->
    let KS := (rbytes R ++ bitsB tail) ++ concat (map hb sched) ++ back in
    length KS = kn + length back /\ firstn kn KS = imageR R tail sched /\ bytes8 KS.
  Proof.
    intros R tail sched back Ht Hs Hb. cbv zeta. rewrite app_assoc.
    exact (region_prefix kn _ back (imageR_length R tail sched Ht Hs) (imageR_bytes8 R tail sched) Hb).
  Qed.

  Variables (code : list sstmt) (fuel R : nat) (pl' : list N) (t : list event).
  Variable F : list Slot -> list byte -> list byte.
  Hypothesis HR : (N.of_nat R < 2 ^ 32)%N.
  Hypothesis Hfinal : forall (out blk st hdr : list byte) (sched : list Slot),
    length out = bs -> length blk = bs -> length st = bs -> length hdr = hl -> length sched = ns ->
    let m0 : mem bool := [bitsB out; bitsB blk; ks_image Slot hb (bitsB hdr) sched; bitsB st] in
    field_val m0 ksf = N.of_nat R ->
    exists st', interp [ksf] callB fuel [0; 0; 0]%N (m0, []) code = Some (pl', st', t)
      /\ nth 0 (fst st') [] = bitsB (F sched blk)
      /\ nth 1 (fst st') [] = bitsB blk /\ nth 2 (fst st') [] = ks_image Slot hb (bitsB hdr) sched.

  (* Hfinal on an object given as imageR R tail sched; its premise on the round-count field is field_val_rounds *)
  Lemma block_on_imageR : forall (out blk st tail : list byte) (sched : list Slot) (obj : list (list bool)) (res : list byte),
    length out = bs -> length blk = bs -> length st = bs -> 4 + length tail = hl -> length sched = ns ->
    obj = imageR R tail sched -> F sched blk = res ->
    exists st', interp [ksf] callB fuel [0; 0; 0]%N (([bitsB out; bitsB blk; obj; bitsB st] : mem bool), []) code = Some (pl', st', t)
      /\ nth 0 (fst st') [] = bitsB res /\ nth 1 (fst st') [] = bitsB blk /\ nth 2 (fst st') [] = obj.
  Proof.
    intros out blk st tail sched obj res Ho Hb Hst Ht Hs -> <-. rewrite imageR_ks_image.
    apply (Hfinal out blk st (hdrR R tail) sched Ho Hb Hst); [rewrite hdrR_length; exact Ht | exact Hs |].
    rewrite <- imageR_ks_image. apply field_val_rounds. exact HR.
  Qed.

  (* the contract of pctr_model / vctr_model_* / ppar_model for the callee's code *)
  Lemma block_contract_gen : forall fno (KS : list (list bool)) (tail : list byte) (sched : list Slot),
    4 + length tail = hl -> length sched = ns -> firstn kn KS = imageR R tail sched ->
    forall blk, length blk = bs ->
    cB_run bs kn code fuel fno (concat (bitsB blk) ++ concat (firstn kn KS)) = concat (bitsB (F sched blk)).
  Proof.
    intros fno KS tail sched Ht Hs -> blk Hb. unfold cB_run. cbv zeta.
    destruct (decode_arg_split blk _ bs kn Hb (imageR_length R tail sched Ht Hs) (imageR_bytes8 R tail sched)) as [-> ->].
    rewrite <- bits_zeros.
    destruct (block_on_imageR (zeros bs) blk (zeros bs) tail sched _ _ (repeat_length _ _) Hb (repeat_length _ _) Ht Hs eq_refl eq_refl)
      as [st' [-> [-> _]]].
    reflexivity.
  Qed.
End BlockOnImage.

Section Compose128.
  Variables (code : list sstmt) (fuel R : nat) (pl' : list N) (sh' : shadow) (c : list stmt) (t : list event).
  Hypothesis HR0 : 0 < R.
  Hypothesis HR : R <= 56.
  Hypothesis Hflat : flat [ksf] fuel [0; 0; 0]%N [(ksf, N.of_nat R)] code = Some (pl', sh', c, t).
  Hypothesis Hcheck : check_block_w callP sizes128 2 8 c (enc_offs 8 8 R)
    (enc_stepsW poly (k128_subcells poly pxor pand pzero pone) (k128_enc_linear poly pxor pzero pone) R)
    (enc_stepsW bool (k128_subcells bool xorb andb false true) (k128_enc_linear bool xorb false true) R) = true.

  Theorem enc128_contract : forall fno (KS : list (list bool)) (hdrtail : list byte) (sched : list (half byte)),
    length hdrtail = 4 -> length sched = 56 ->
    firstn 456 KS = (rbytes R ++ bitsB hdrtail) ++ concat (map (KernelSpecs2.half_bytes128 bool) sched) ->
    forall blk, length blk = 16 ->
    cB_run 16 456 code fuel fno (concat (bitsB blk) ++ concat (firstn 456 KS))
    = concat (bitsB (m128_encrypt {| ks_rounds := N.of_nat R; ks_sched := sched |} blk)).
  Proof.
    intros fno KS hdrtail sched Hh.
    exact (block_contract_gen 16 8 8 56 456 _ _ (KernelHom2.half_bytes128_length bool) hb128_len8 eq_refl code fuel R pl' t
             (fun s => m128_encrypt {| ks_rounds := N.of_nat R; ks_sched := s |}) (rounds_lt_2_32 R 56 HR eq_refl)
             (enc128_final code fuel R pl' sh' c t HR0 HR Hflat Hcheck) fno KS hdrtail sched (f_equal (Nat.add 4) Hh)).
  Qed.
End Compose128.

(* the generic SKINNY-128 CTR encryption with the call to skinny128_ecb_encrypt interpreted by that function's OWN translated
   code: both functions as translated, every request length `size` the CTR part was flattened for, every buffered offset,
   every counter, every key schedule with 1..56 rounds — the reference interpreter returns the model's CTR output and state *)
Theorem pctr128_composed :
  forall fields code fuel pl sh pl' sh' c t fno off size plen           (* the CTR function *)
         code2 fuel2 R pl2 sh2 c2 t2,                                   (* the block function *)
  fields_okb fields = true ->
  flat fields fuel pl sh code = Some (pl', sh', c, t) ->
  check_proc [size; size; 16; 472 + 16 + 16 + 4 + plen] c
    (cspec poly pxor pand pzero pone 16 456 472 (472 + 16) (472 + 16 + 16) fno off size) = true ->
  0 < R -> R <= 56 ->
  flat [ksf] fuel2 [0; 0; 0]%N [(ksf, N.of_nat R)] code2 = Some (pl2, sh2, c2, t2) ->
  check_block_w callP sizes128 2 8 c2 (enc_offs 8 8 R)
    (enc_stepsW poly (k128_subcells poly pxor pand pzero pone) (k128_enc_linear poly pxor pzero pone) R)
    (enc_stepsW bool (k128_subcells bool xorb andb false true) (k128_enc_linear bool xorb false true) R) = true ->
  forall (out inp cnt ecnt hdrtail tw : list byte) (sched : list (half byte)) (CO pad : list (list bool)),
  off <= 16 -> length out = size -> length inp = size -> length cnt = 16 -> length ecnt = 16 ->
  length hdrtail = 4 -> length sched = 56 -> length tw = 16 ->
  length CO = 16 -> bytes8 CO -> length pad = plen -> bytes8 pad ->
  let KS := (rbytes R ++ bitsB hdrtail) ++ concat (map (KernelSpecs2.half_bytes128 bool) sched) ++ bitsB tw in
  let E := m128_encrypt {| ks_rounds := N.of_nat R; ks_sched := sched |} in
  let m0 := img (bitsB inp) CO KS pad (bitsB out) cnt ecnt off in
  SIRProofs.Inv fields sh m0 ->
  forall c' outb,
  crypt unit (fun _ => E) 16 1 {| c_key := tt; c_lanes := [cnt]; c_ecounter := ecnt; c_off := off |} inp = Some (c', outb) ->
  exists st' cnt' ecnt',
    interp fields (cB_run 16 456 code2 fuel2) fuel pl (m0, []) code = Some (pl', st', t) /\
    c_lanes c' = [cnt'] /\ c_ecounter c' = ecnt' /\
    fst st' = img (bitsB inp) CO KS pad (bitsB outb) cnt' ecnt' (c_off c').
Proof.
  intros fields code fuel pl sh pl' sh' c t fno off size plen code2 fuel2 R pl2 sh2 c2 t2 Hf Hfl Hk HR0 HR Hfl2 Hk2
         out inp cnt ecnt hdrtail tw sched CO pad Hoff Ho Hi Hc He Hh Hs Htw HCO HCO8 Hpad Hpad8 KS E m0 HInv c' outb Hcr.
  destruct (imageR_prefix 8 8 56 456 _ _ (KernelHom2.half_bytes128_length bool) hb128_len8 eq_refl R hdrtail sched (bitsB tw)
              (f_equal (Nat.add 4) Hh) Hs (bits_len8 tw)) as (LKS & FKS & KS8).
  apply (pctr_model fields code fuel pl sh pl' sh' c t 16 456 472 fno off size plen Hf Hfl Hk (cB_run 16 456 code2 fuel2) E
           out inp cnt ecnt CO KS pad (Nat.lt_0_succ 15) (Nat.le_add_r 456 16)); try assumption.
  - rewrite bitsB_length, Htw in LKS. exact LKS.
  - intros blk _. apply ProofsApiCtr.m128_encrypt_length.
  - intros blk Hb. exact (enc128_contract code2 fuel2 R pl2 sh2 c2 t2 HR0 HR Hfl2 Hk2 fno KS hdrtail sched Hh Hs FKS blk Hb).
Qed.

Section Compose64.
  Variables (code : list sstmt) (fuel R : nat) (pl' : list N) (sh' : shadow) (c : list stmt) (t : list event).
  Hypothesis HR0 : 0 < R.
  Hypothesis HR : R <= 40.
  Hypothesis Hflat : flat [ksf] fuel [0; 0; 0]%N [(ksf, N.of_nat R)] code = Some (pl', sh', c, t).
  Hypothesis Hcheck : check_block_w callP sizes64 2 4 c (enc_offs 4 4 R)
    (enc_stepsW poly (k64_subcells poly pxor pand pzero pone) (k64_enc_linear poly pxor pzero pone) R)
    (enc_stepsW bool (k64_subcells bool xorb andb false true) (k64_enc_linear bool xorb false true) R) = true.

  Theorem enc64_contract : forall fno (KS : list (list bool)) (hdrtail : list byte) (sched : list (half nib)),
    length hdrtail = 0 -> length sched = 40 ->
    firstn 164 KS = (rbytes R ++ bitsB hdrtail) ++ concat (map (KernelSpecs2.half_bytes64 bool) sched) ->
    forall blk, length blk = 8 ->
    cB_run 8 164 code fuel fno (concat (bitsB blk) ++ concat (firstn 164 KS))
    = concat (bitsB (m64_encrypt {| ks_rounds := N.of_nat R; ks_sched := sched |} blk)).
  Proof.
    intros fno KS hdrtail sched Hh.
    exact (block_contract_gen 8 4 4 40 164 _ _ (KernelHom2.half_bytes64_length bool) hb64_len8 eq_refl code fuel R pl' t
             (fun s => m64_encrypt {| ks_rounds := N.of_nat R; ks_sched := s |}) (rounds_lt_2_32 R 40 HR eq_refl)
             (enc64_final code fuel R pl' sh' c t HR0 HR Hflat Hcheck) fno KS hdrtail sched (f_equal (Nat.add 4) Hh)).
  Qed.
End Compose64.

(* the generic SKINNY-64 CTR encryption with the call to skinny64_ecb_encrypt interpreted by that function's OWN translated
   code: both functions as translated, every request length `size` the CTR part was flattened for, every buffered offset,
   every counter, every key schedule with 1..40 rounds — the reference interpreter returns the model's CTR output and state *)
Theorem pctr64_composed :
  forall fields code fuel pl sh pl' sh' c t fno off size plen           (* the CTR function *)
         code2 fuel2 R pl2 sh2 c2 t2,                                   (* the block function *)
  fields_okb fields = true ->
  flat fields fuel pl sh code = Some (pl', sh', c, t) ->
  check_proc [size; size; 16; 172 + 8 + 8 + 4 + plen] c
    (cspec poly pxor pand pzero pone 8 164 172 (172 + 8) (172 + 8 + 8) fno off size) = true ->
  0 < R -> R <= 40 ->
  flat [ksf] fuel2 [0; 0; 0]%N [(ksf, N.of_nat R)] code2 = Some (pl2, sh2, c2, t2) ->
  check_block_w callP sizes64 2 4 c2 (enc_offs 4 4 R)
    (enc_stepsW poly (k64_subcells poly pxor pand pzero pone) (k64_enc_linear poly pxor pzero pone) R)
    (enc_stepsW bool (k64_subcells bool xorb andb false true) (k64_enc_linear bool xorb false true) R) = true ->
  forall (out inp cnt ecnt hdrtail tw : list byte) (sched : list (half nib)) (CO pad : list (list bool)),
  off <= 8 -> length out = size -> length inp = size -> length cnt = 8 -> length ecnt = 8 ->
  length hdrtail = 0 -> length sched = 40 -> length tw = 8 ->
  length CO = 16 -> bytes8 CO -> length pad = plen -> bytes8 pad ->
  let KS := (rbytes R ++ bitsB hdrtail) ++ concat (map (KernelSpecs2.half_bytes64 bool) sched) ++ bitsB tw in
  let E := m64_encrypt {| ks_rounds := N.of_nat R; ks_sched := sched |} in
  let m0 := img (bitsB inp) CO KS pad (bitsB out) cnt ecnt off in
  SIRProofs.Inv fields sh m0 ->
  forall c' outb,
  crypt unit (fun _ => E) 8 1 {| c_key := tt; c_lanes := [cnt]; c_ecounter := ecnt; c_off := off |} inp = Some (c', outb) ->
  exists st' cnt' ecnt',
    interp fields (cB_run 8 164 code2 fuel2) fuel pl (m0, []) code = Some (pl', st', t) /\
    c_lanes c' = [cnt'] /\ c_ecounter c' = ecnt' /\
    fst st' = img (bitsB inp) CO KS pad (bitsB outb) cnt' ecnt' (c_off c').
Proof.
  intros fields code fuel pl sh pl' sh' c t fno off size plen code2 fuel2 R pl2 sh2 c2 t2 Hf Hfl Hk HR0 HR Hfl2 Hk2
         out inp cnt ecnt hdrtail tw sched CO pad Hoff Ho Hi Hc He Hh Hs Htw HCO HCO8 Hpad Hpad8 KS E m0 HInv c' outb Hcr.
  destruct (imageR_prefix 4 4 40 164 _ _ (KernelHom2.half_bytes64_length bool) hb64_len8 eq_refl R hdrtail sched (bitsB tw)
              (f_equal (Nat.add 4) Hh) Hs (bits_len8 tw)) as (LKS & FKS & KS8).
  apply (pctr_model fields code fuel pl sh pl' sh' c t 8 164 172 fno off size plen Hf Hfl Hk (cB_run 8 164 code2 fuel2) E
           out inp cnt ecnt CO KS pad (Nat.lt_0_succ 7) (Nat.le_add_r 164 8)); try assumption.
  - rewrite bitsB_length, Htw in LKS. exact LKS.
  - intros blk _. apply ProofsApiCtr.m64_encrypt_length.
  - intros blk Hb. exact (enc64_contract code2 fuel2 R pl2 sh2 c2 t2 HR0 HR Hfl2 Hk2 fno KS hdrtail sched Hh Hs FKS blk Hb).
Qed.

Print Assumptions enc128_contract.
Print Assumptions pctr128_composed.
Print Assumptions enc64_contract.
Print Assumptions pctr64_composed.
