(* WholeKeyTweak.v — the tweakable key setup of SKINNY-128 and SKINNY-64 on the byte image of a model schedule:
   skinny*_set_tweaked_key (what the whole-function obligations key*_stk_* / kctr_*_stk_* check, for all data) gives the byte
   image of ModelCipher.set_key_inner with the all-zero tweak in TK1 and the tweak-domain constant, for every accepted key
   length; skinny*_set_tweak gives the image of ModelCipher.set_tweak's schedule.  All are instances of WholeKey.KeyModel. *)
From Coq Require Import List NArith Arith.
From Skinny Require Import Bits SpecSkinny KernelSpecs KernelSpecs2 KernelHom2 ModelCipher ProofsSkinny KernelBridge
                           WholeBridge WholeKey.
Import ListNotations.

(* the statements abbreviate the slot image as [hbK8] / [hbT8] (SKINNY-128) and [hbK4] / [hbT4] (SKINNY-64): [hbT*] is
   [hbK*], the key statements are written with K and the tweak statements with T; the LFSRs are [l2K*] / [l3K*], the
   key schedule specification is [KSt*] (for its five numbers see WholeKey.v, above [w_set_key128]), and the model's
   xor_tk1 pass is [xtk1T*] *)
Notation hbK8 := (KernelSpecs2.half_bytes128 bool).
Notation l2K8 := (lfsr2_8 bool xorb).
Notation l3K8 := (lfsr3_8 bool xorb).
Notation KSt128 := (key_sched bool false true (k128_tk1_body bool xorb false true) (k128_tk2_body bool xorb false)
                          (k128_tk3_body bool xorb false) 8 16 40 48 56).

Theorem key_sched128_tweaked_model : forall (key hdr : list byte) (sched : list (half byte)) back r0,
  16 <= length key <= 32 -> length hdr = 8 -> length sched = 56 ->
  let ks' := set_key_inner byte bxor8 cnib8 l2K8 l3K8 16 load128 byte0 m128_rounds {| ks_rounds := r0; ks_sched := sched |} key
                           (Some (zeros 16)) in
  KSt128 (length key) true (bitsb key) (repeat (zbyte bool false) 16) (bitsb hdr ++ concat (map hbK8 sched) ++ back)
  = (rbytes (N.to_nat (ks_rounds byte ks')) ++ skipn 4 (bitsb hdr)) ++ concat (map hbK8 (ks_sched byte ks')) ++ back.
Proof.
  intros key hdr sched back r0 Hk Hh Hs.
  exact (at_skinny128 key_sched_model (Some (zeros 16)) key (bitsb hdr) sched back r0
           (proj1 Hk) eq_refl (eq_trans (bitsB_length hdr) Hh) 56 Hs m128_rounds_le).
Qed.

Notation hbK4 := (KernelSpecs2.half_bytes64 bool).
Notation l2K4 := (lfsr2_4 bool xorb).
Notation l3K4 := (lfsr3_4 bool xorb).
Notation KSt64 := (key_sched bool false true (k64_tk1_body bool xorb false true) (k64_tk2_body bool xorb false)
                          (k64_tk3_body bool xorb false) 4 8 32 36 40).

Theorem key_sched64_tweaked_model : forall (key hdr : list byte) (sched : list (half nib)) back r0,
  8 <= length key <= 16 -> length hdr = 4 -> length sched = 40 ->
  let ks' := set_key_inner nib bxor4 cnib4 l2K4 l3K4 8 load64 nib0 m64_rounds {| ks_rounds := r0; ks_sched := sched |} key
                           (Some (zeros 8)) in
  KSt64 (length key) true (bitsb key) (repeat (zbyte bool false) 8) (bitsb hdr ++ concat (map hbK4 sched) ++ back)
  = (rbytes (N.to_nat (ks_rounds nib ks')) ++ skipn 4 (bitsb hdr)) ++ concat (map hbK4 (ks_sched nib ks')) ++ back.
Proof.
  intros key hdr sched back r0 Hk Hh Hs.
  exact (at_skinny64 key_sched_model (Some (zeros 8)) key (bitsb hdr) sched back r0
           (proj1 Hk) eq_refl (eq_trans (bitsB_length hdr) Hh) 40 Hs m64_rounds_le).
Qed.

Print Assumptions key_sched128_tweaked_model.
Print Assumptions key_sched64_tweaked_model.

Notation hbT8 := hbK8.
Notation xtk1T8 := (xor_tk1 byte bxor8 16 load128).

Theorem w_set_tweak128_model : forall R tsz (null : bool) (twarg prevtw hdr : list byte) (sched : list (half byte)) rest mrest,
  length hdr = 8 -> length sched = 56 -> length prevtw = 16 -> R <= 56 -> tsz <= 16 ->
  let newtw := if null then zeros 16 else pad_to 16 (firstn tsz twarg) in
  w_set_tweak128 bool xorb false R tsz null
    ((bitsb hdr ++ concat (map hbT8 sched) ++ bitsb prevtw ++ rest) :: bitsb twarg :: mrest)
  = [bitsb hdr ++ concat (map hbT8 (xtk1T8 R newtw (xtk1T8 R prevtw sched))) ++ bitsb newtw ++ rest; bitsb twarg].
Proof.
  intros R tsz null twarg prevtw hdr sched rest mrest Hh Hs Hp HR _.
  exact (w_set_tweak_model 456 byte bxor8 16 load128 hbT8 (reg_of_state128 bool) _ 8 (half_bytes128_length bool) reg_of_state128_load128
           (k128_xor_body_step bool xorb false _) R tsz null twarg prevtw (bitsb hdr) sched rest mrest
           (eq_trans (bitsB_length hdr) Hh) 56 Hs eq_refl Hp HR).
Qed.

Notation hbT4 := hbK4.
Notation xtk1T4 := (xor_tk1 nib bxor4 8 load64).

Theorem w_set_tweak64_model : forall R tsz (null : bool) (twarg prevtw hdr : list byte) (sched : list (half nib)) rest mrest,
  length hdr = 4 -> length sched = 40 -> length prevtw = 8 -> R <= 40 -> tsz <= 8 ->
  let newtw := if null then zeros 8 else pad_to 8 (firstn tsz twarg) in
  w_set_tweak64 bool xorb false R tsz null
    ((bitsb hdr ++ concat (map hbT4 sched) ++ bitsb prevtw ++ rest) :: bitsb twarg :: mrest)
  = [bitsb hdr ++ concat (map hbT4 (xtk1T4 R newtw (xtk1T4 R prevtw sched))) ++ bitsb newtw ++ rest; bitsb twarg].
Proof.
  intros R tsz null twarg prevtw hdr sched rest mrest Hh Hs Hp HR _.
  exact (w_set_tweak_model 164 nib bxor4 8 load64 hbT4 (reg_of_state64 bool) _ 4 (half_bytes64_length bool) reg_of_state64_load64
           (k64_xor_body_step bool xorb false _) R tsz null twarg prevtw (bitsb hdr) sched rest mrest
           (eq_trans (bitsB_length hdr) Hh) 40 Hs eq_refl Hp HR).
Qed.

(* the observable result of skinny128_set_tweaked_key(ks, key, size) on the byte image of a model tweakable schedule
   (header, 56 schedule words, the stored tweak, anything behind) is the byte image of the model's result: the schedule of
   set_key_inner under a zero TK1, and a zero stored tweak — for every accepted key size *)
Theorem w_set_tweaked_key128_model : forall (key prevtw hdr : list byte) (sched : list (half byte)) r0 rest mrest,
  16 <= length key <= 32 -> length hdr = 8 -> length sched = 56 -> length prevtw = 16 ->
  let res := m128_set_tweaked_key {| tk_ks := {| ks_rounds := r0; ks_sched := sched |}; tk_tweak := prevtw |} (Some key)
                                  (N.of_nat (length key)) in
  fst res = 1%N /\
  w_set_tweaked_key128 bool xorb false true (length key)
    ((bitsb hdr ++ concat (map hbT8 sched) ++ bitsb prevtw ++ rest) :: bitsb key :: mrest)
  = [ (rbytes (N.to_nat (ks_rounds byte (tk_ks byte (snd res)))) ++ skipn 4 (bitsb hdr))
        ++ concat (map hbT8 (ks_sched byte (tk_ks byte (snd res)))) ++ bitsb (tk_tweak byte (snd res)) ++ rest;
      bitsb key ].
Proof.
  intros key prevtw hdr sched r0 rest mrest Hk Hh Hs Hp.
  exact (at_skinny128 (w_set_tweaked_key_model 456) key prevtw (bitsb hdr) sched r0 rest mrest Hk
           (eq_trans (bitsB_length hdr) Hh) 56 Hs m128_rounds_le eq_refl Hp).
Qed.

(* the same for skinny64_set_tweaked_key (40 schedule words) *)
Theorem w_set_tweaked_key64_model : forall (key prevtw hdr : list byte) (sched : list (half nib)) r0 rest mrest,
  8 <= length key <= 16 -> length hdr = 4 -> length sched = 40 -> length prevtw = 8 ->
  let res := m64_set_tweaked_key {| tk_ks := {| ks_rounds := r0; ks_sched := sched |}; tk_tweak := prevtw |} (Some key)
                                  (N.of_nat (length key)) in
  fst res = 1%N /\
  w_set_tweaked_key64 bool xorb false true (length key)
    ((bitsb hdr ++ concat (map hbT4 sched) ++ bitsb prevtw ++ rest) :: bitsb key :: mrest)
  = [ (rbytes (N.to_nat (ks_rounds nib (tk_ks nib (snd res)))) ++ skipn 4 (bitsb hdr))
        ++ concat (map hbT4 (ks_sched nib (tk_ks nib (snd res)))) ++ bitsb (tk_tweak nib (snd res)) ++ rest;
      bitsb key ].
Proof.
  intros key prevtw hdr sched r0 rest mrest Hk Hh Hs Hp.
  exact (at_skinny64 (w_set_tweaked_key_model 164) key prevtw (bitsb hdr) sched r0 rest mrest Hk
           (eq_trans (bitsB_length hdr) Hh) 40 Hs m64_rounds_le eq_refl Hp).
Qed.

Print Assumptions w_set_tweak128_model.
Print Assumptions w_set_tweak64_model.
Print Assumptions w_set_tweaked_key128_model.
Print Assumptions w_set_tweaked_key64_model.
