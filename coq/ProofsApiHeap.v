(* ProofsApiHeap.v — heap discipline of the API model (C15, C16, C17): init/cleanup balance, inertness
   after cleanup or failed init, allocation failure, wipe-before-free, leak freedom.  What one step reads
   and writes is described once, in [step_eff]; ProofsApiErr.v draws its locality results from it too. *)
From Coq Require Import List NArith Lia Permutation.
From Skinny Require Import ListFacts Bits ModelCipher ModelCtr ModelCpu Api ProofsApiCtr.
Import ListNotations.

(* the heap block an object owns, if any *)
Definition owned (o : obj) : option N :=
  match o with
  | OC128 (CLive _ n _) | OC64 (CLive _ n _) | OMC (CLive _ n _) => Some n
  | OP128 (PObj _ (Some (n, _)) _) | OP64 (PObj _ (Some (n, _)) _)
  | OMP (PObj _ (Some (n, _)) _) => Some n
  | _ => None
  end.

Definition olist {A : Type} (o : option A) : list A :=
  match o with Some a => [a] | None => [] end.
Definition obind {A B : Type} (f : A -> option B) (o : option A) : option B :=
  match o with Some a => f a | None => None end.

Definition blocks_of (l : list (N * obj)) : list N :=
  flat_map (fun p => olist (owned (snd p))) l.
(* the blocks owned by the objects bound in w_objs, one entry per binding *)
Definition owned_blocks (w : world) : list N := blocks_of (w_objs w).

Definition obj_kind (o : obj) : kind :=
  match o with
  | OK128 _ => K128 | OT128 _ => T128 | OK64 _ => K64 | OT64 _ => T64 | OMK _ => MK
  | OC128 _ => C128 | OC64 _ => C64 | OMC _ => MC
  | OP128 _ => P128 | OP64 _ => P64 | OMP _ => MP
  end.
Definition obj_has_kind (o : obj) (k : kind) : Prop := obj_kind o = k.

Definition ctr_kind (k : kind) : Prop := k = C128 \/ k = C64 \/ k = MC.
Definition par_kind (k : kind) : Prop := k = P128 \/ k = P64 \/ k = MP.
(* the kinds that have init / cleanup *)
Definition heap_kind (k : kind) : Prop := ctr_kind k \/ par_kind k.

(* inert: vtable NULL (CTR) / ctx NULL (parallel) *)
Definition is_inert (o : obj) : bool :=
  match o with
  | OC128 CNull | OC64 CNull | OMC CNull => true
  | OP128 (PObj _ None _) | OP64 (PObj _ None _) | OMP (PObj _ None _) => true
  | _ => false
  end.
Definition is_live_owning (o : obj) (n : N) : Prop := owned o = Some n.

Definition inert_at (w : world) (id : N) (k : kind) : Prop :=
  exists o, lookup w id = Some o /\ obj_has_kind o k /\ is_inert o = true.
Definition live_at (w : world) (id : N) (k : kind) (n : N) : Prop :=
  exists o, lookup w id = Some o /\ obj_has_kind o k /\ is_live_owning o n.

(* an object down to the fields that decide whether it is inert and what it owns *)
Ltac destruct_obj o := destruct o as [| | | | |[]|[]|[]|[|? [[]|] ?]|[|? [[]|] ?]|[|? [[]|] ?]].

Lemma inert_heap_kind : forall o, is_inert o = true -> heap_kind (obj_kind o).
Proof.
  unfold heap_kind, ctr_kind, par_kind.
  intros [| | | | |c|c|c|p|p|p] H; try discriminate H; cbn; tauto.
Qed.
Lemma inert_owns_nothing : forall o, is_inert o = true -> owned o = None.
Proof.
  intros o H. destruct_obj o; try discriminate H; reflexivity.
Qed.
Lemma owning_heap_kind : forall o n, owned o = Some n -> heap_kind (obj_kind o).
Proof.
  unfold heap_kind, ctr_kind, par_kind.
  intros [| | | | |c|c|c|p|p|p] n H; try discriminate H; cbn; tauto.
Qed.

(* a history is disciplined when it never initialises an object that currently
   owns a block and never re-creates an id whose object currently owns a block *)
Definition owns_nothing (w : world) (id : N) : bool :=
  match obind owned (lookup w id) with Some _ => false | None => true end.
Definition disciplined (w : world) (o : op) : bool :=
  match o with
  | ONew _ id _ => owns_nothing w id
  | OInit _ (Some id) => owns_nothing w id
  | _ => true
  end.
Fixpoint disciplined_history (w : world) (ops : list op) : Prop :=
  match ops with
  | [] => True
  | o :: r => disciplined w o = true /\ disciplined_history (fst (step w o)) r
  end.

(* Invariant: ids unique; h_live duplicate free; live blocks below h_next;
   owned blocks pairwise distinct; live blocks = owned blocks up to order *)
Definition HeapInv (w : world) : Prop :=
  NoDup (map fst (w_objs w)) /\
  NoDup (h_live (w_heap w)) /\
  (forall n, In n (h_live (w_heap w)) -> (n < h_next (w_heap w))%N) /\
  NoDup (owned_blocks w) /\
  Permutation (owned_blocks w) (h_live (w_heap w)).

(* on the list of bindings: what [store_obj w id _] keeps of it, and [lookup] *)
Definition others (l : list (N * obj)) (id : N) : list (N * obj) :=
  filter (fun p => negb (N.eqb (fst p) id)) l.
Definition lookupl (l : list (N * obj)) (id : N) : option obj :=
  match find (fun p => N.eqb (fst p) id) l with
  | Some p => Some (snd p)
  | None => None
  end.

Lemma lookup_store_other : forall w id id' o, id' <> id ->
  lookup (store_obj w id o) id' = lookup w id'.
Proof. exact ProofsApiCtr.lookup_store_other. Qed.

Lemma run_nil : forall w, run w [] = (w, []).
Proof. reflexivity. Qed.

Lemma others_ids l id : map fst (others l id) = filter (fun i => negb (N.eqb i id)) (map fst l).
Proof.
  unfold others. induction l as [|[i ob] l IH]; [reflexivity|]. cbn [filter map fst].
  destruct (negb (N.eqb i id)); cbn [map fst]; now rewrite IH.
Qed.
Lemma store_ids_nodup : forall l id o, NoDup (map fst l) ->
  NoDup (map fst ((id, o) :: others l id)).
Proof.
  intros l id o H. cbn [map fst]. rewrite others_ids.
  constructor; [apply filter_ne_not_in | apply NoDup_filter, H].
Qed.

(* with unique ids, the owned blocks split into id's contribution and the rest *)
Lemma blocks_split : forall l id, NoDup (map fst l) ->
  Permutation (blocks_of l) (olist (obind owned (lookupl l id)) ++ blocks_of (others l id)).
Proof.
  induction l as [|[i ob] l IH]; intros id H; [apply Permutation_refl|].
  cbn [map fst] in H. apply NoDup_cons_iff in H. destruct H as [H1 H2].
  unfold lookupl, others, blocks_of. cbn [find filter fst flat_map snd].
  destruct (N.eqb i id) eqn:E; cbn [negb snd obind].
  - apply N.eqb_eq in E. subst i.
    rewrite (filter_absent fst l id H1). apply Permutation_refl.
  - cbn [flat_map snd]. fold (others l id). fold (blocks_of l). fold (blocks_of (others l id)).
    fold (lookupl l id).
    eapply Permutation_trans; [apply Permutation_app_head; apply (IH id H2)|].
    apply Permutation_app_swap_app.
Qed.

Lemma owned_blocks_store : forall w h id o,
  owned_blocks (store_obj (with_heap w h) id o) = olist (owned o) ++ blocks_of (others (w_objs w) id).
Proof. reflexivity. Qed.

Definition heap_failed (h : heap) : heap :=
  {| h_next := h_next h; h_live := h_live h; h_fail := 0 |}.
Definition heap_alloced (h : heap) : heap :=
  {| h_next := N.succ (h_next h); h_live := h_next h :: h_live h; h_fail := N.pred (h_fail h) |}.

Lemma alloc_fail : forall h, h_fail h = 1%N -> alloc h = (None, heap_failed h, [EAllocFail]).
Proof. intros h H. unfold alloc. rewrite H. reflexivity. Qed.
Lemma alloc_ok : forall h, h_fail h <> 1%N ->
  alloc h = (Some (h_next h), heap_alloced h, [EAlloc (h_next h)]).
Proof.
  intros h H. unfold alloc. destruct (N.eqb (h_fail h) 1) eqn:E; [|reflexivity].
  apply N.eqb_eq in E. contradiction.
Qed.

(* everything step reads beside the object it is called on *)
Definition same_env (w w' : world) : Prop :=
  w_heap w = w_heap w' /\ w_cpu w = w_cpu w' /\ w_ambient w = w_ambient w'
  /\ w_build w = w_build w' /\ w_real w = w_real w'.

Lemma same_env_refl w : same_env w w.
Proof. repeat split. Qed.
Lemma same_env_choose wide w w' : same_env w w' -> choose wide w = choose wide w'.
Proof.
  unfold choose, cur_cpu. intros (_ & -> & -> & -> & ->). reflexivity.
Qed.

(* the object an operation is called on *)
Definition op_obj (o : op) : option N :=
  match o with
  | ONew _ id _ => Some id
  | OCfgBackend _ | OCfgCpuReal | OCfgCpuSim _ | OCfgAmbient _ | OCfgFail _ | OProbe => None
  | OSetKey _ ob _ _ | OSetTweakedKey _ ob _ _ | OSetTweak _ ob _ _ | OMSetKey _ ob _ _ _ _
  | OSwap _ ob | OEnc _ ob _ | ODec _ ob _ | OCryptT ob _ _ | OImg _ ob | OInit _ ob
  | OCleanup _ ob | OSetCtr _ ob _ _ | OCrypt _ ob _ _ _ | OParEnc _ ob _ _ | OParDec _ ob _ _
  | OMParCrypt ob _ _ _ | OWhich _ ob | OPsize _ ob => ob
  end.
Definition is_cfg (o : op) : bool :=
  match o with
  | OCfgBackend _ | OCfgCpuReal | OCfgCpuSim _ | OCfgAmbient _ | OCfgFail _ => true
  | _ => false
  end.
(* the operations that may change the state of an existing object, init and cleanup apart *)
Definition is_setter (o : op) : bool :=
  match o with
  | OSetKey _ _ _ _ | OSetTweakedKey _ _ _ _ | OSetTweak _ _ _ _ | OMSetKey _ _ _ _ _ _
  | OSwap _ _ | OSetCtr _ _ _ _ | OCrypt _ _ _ _ _ => true
  | _ => false
  end.

(* what one step does to the world *)
Inductive eff : Type :=
| eff_none
| eff_store (id : N) (x : obj)
| eff_heap_store (h : heap) (id : N) (x : obj)
| eff_heap (h : heap)
| eff_cpu (m : cpumode)
| eff_ambient (a : N).
Definition apply_eff (e : eff) (w : world) : world :=
  match e with
  | eff_none => w
  | eff_store id x => store_obj w id x
  | eff_heap_store h id x => store_obj (with_heap w h) id x
  | eff_heap h => with_heap w h
  | eff_cpu m => with_cpu w m
  | eff_ambient a => with_ambient w a
  end.

Definition nofree (ev : list event) : bool :=
  forallb (fun e => match e with EFree _ _ => false | _ => true end) ev.
Lemma nofree_spec : forall ev n z, nofree ev = true -> ~ In (EFree n z) ev.
Proof.
  intros ev n z H C. unfold nofree in H. rewrite forallb_forall in H.
  apply H in C. discriminate.
Qed.

(* the effects and events step can have, as far as objects and heap are concerned *)
Inductive shape (w : world) (o : op) : eff -> list event -> Prop :=
| SS_none : forall ev, nofree ev = true -> shape w o eff_none ev
| SS_cfg : forall e, is_cfg o = true ->
    w_objs (apply_eff e w) = w_objs w ->
    h_live (w_heap (apply_eff e w)) = h_live (w_heap w) ->
    h_next (w_heap (apply_eff e w)) = h_next (w_heap w) ->
    shape w o e []
| SS_upd : forall id old x ev,
    is_setter o = true -> op_obj o = Some id -> lookup w id = Some old ->
    owned x = owned old -> nofree ev = true ->
    shape w o (eff_store id x) ev
| SS_new : forall k id f,
    o = ONew k id f -> shape w o (eff_store id (new_obj k f)) []
| SS_init : forall k id x r h ev,
    o = OInit k (Some id) -> alloc (w_heap w) = (r, h, ev) -> owned x = r ->
    shape w o (eff_heap_store h id x) (ev ++ [ERet (if r then 1 else 0)%N])
| SS_cleanup : forall k id old n x,
    o = OCleanup k (Some id) -> lookup w id = Some old ->
    owned old = Some n -> owned x = None ->
    shape w o (eff_heap_store (release (w_heap w) n) id x) [EFree n true; EDone].

(* F, a function of the world alone once the object it works on has been looked
   up in w, has one effect and one result on every world with w's environment *)
Definition acts (w : world) (o : op) (F : world -> world * list event) : Prop :=
  exists e ev, shape w o e ev /\ forall w', same_env w w' -> F w' = (apply_eff e w', ev).

Lemma acts_none w o ev : nofree ev = true -> acts w o (fun w' => (w', ev)).
Proof. intros H. exists eff_none, ev. split; [apply SS_none, H | reflexivity]. Qed.
Lemma acts_upd w o id old x ev :
  is_setter o = true -> op_obj o = Some id -> lookup w id = Some old ->
  owned x = owned old -> nofree ev = true ->
  acts w o (fun w' => (store_obj w' id x, ev)).
Proof. intros. exists (eff_store id x), ev. split; [eapply SS_upd; eassumption | reflexivity]. Qed.
(* the setters of the plain key objects *)
Lemma acts_setter {X} w o id old (W : X -> obj) (p : N * X) :
  is_setter o = true -> op_obj o = Some id -> lookup w id = Some old ->
  (forall x, owned (W x) = owned old) ->
  acts w o (fun w' => let '(r, x') := p in
                      if N.eqb r 0 then ret0 w' else (store_obj w' id (W x'), [ERet r])).
Proof.
  intros Hs Ht L HW. destruct p as [r x']. destruct (N.eqb r 0).
  - apply acts_none. reflexivity.
  - eapply acts_upd; eauto.
Qed.

Definition cown {K : Type} (c : ctrobj K) : option N :=
  match c with CLive _ n _ => Some n | _ => None end.
Definition pown {K : Type} (p : parobj K) : option N :=
  match p with PObj _ (Some (n, _)) _ => Some n | _ => None end.
(* what a failed parallel init leaves behind *)
Definition par_inert {K : Type} (p : parobj K) : parobj K :=
  match p with
  | PJunk f => PObj BDef None (word64_of_fill f)
  | PObj _ _ ps => PObj BDef None ps
  end.

Section CtrEff.
  Variable K : Type.
  Variable E : K -> list byte -> list byte.
  Variable bs : nat.
  Variable batch : backend -> nat.
  Variable wide : bool.
  Variable zero_key : K.
  Variable wrap : ctrobj K -> obj.
  Hypothesis wrap_owned : forall c, owned (wrap c) = cown c.

  Lemma ctr_init_acts w k id :
    acts w (OInit k (Some id)) (fun w' => ctr_init K bs batch wide zero_key wrap w' id).
  Proof.
    unfold ctr_init. destruct (alloc (w_heap w)) as [[r h] ev] eqn:Ha.
    eexists (eff_heap_store h id (wrap match r with
                                       | Some n => CLive (choose wide w) n _
                                       | None => CNull
                                       end)), _. split.
    - eapply SS_init; eauto. rewrite wrap_owned. destruct r; reflexivity.
    - intros w' He. rewrite <- (same_env_choose wide w w' He). destruct He as [<- _].
      rewrite Ha. destruct r; reflexivity.
  Qed.
  Lemma ctr_cleanup_acts w k id c : lookup w id = Some (wrap c) ->
    acts w (OCleanup k (Some id)) (fun w' => ctr_cleanup K wrap w' id c).
  Proof.
    intros L. destruct c as [| |be n st]; cbn [ctr_cleanup]; try (apply acts_none; reflexivity).
    exists (eff_heap_store (release (w_heap w) n) id (wrap CNull)), [EFree n true; EDone]. split.
    - eapply SS_cleanup; eauto; rewrite wrap_owned; reflexivity.
    - intros w' [<- _]. reflexivity.
  Qed.
  Lemma ctr_setter_acts w o id c f :
    is_setter o = true -> op_obj o = Some id -> lookup w id = Some (wrap c) ->
    acts w o (fun w' => ctr_setter K bs batch wrap w' id c f).
  Proof.
    intros Hs Ht L. destruct c as [| |be n st]; cbn [ctr_setter]; try (apply acts_none; reflexivity).
    destruct (f (c_key st)) as [r k']. destruct (N.eqb r 0); [apply acts_none; reflexivity|].
    eapply acts_upd; eauto. rewrite !wrap_owned. reflexivity.
  Qed.
  Lemma ctr_setctr_acts w o id c cnt size :
    is_setter o = true -> op_obj o = Some id -> lookup w id = Some (wrap c) ->
    acts w o (fun w' => ctr_setctr K bs batch wrap w' id c cnt size).
  Proof.
    intros Hs Ht L. destruct c as [| |be n st]; cbn [ctr_setctr]; try (apply acts_none; reflexivity).
    destruct (set_counter K bs (batch be) st cnt size) as [r st'].
    destruct (N.eqb r 0); [apply acts_none; reflexivity|].
    eapply acts_upd; eauto. rewrite !wrap_owned. reflexivity.
  Qed.
  Lemma ctr_crypt_acts w o id c inp size outnull :
    is_setter o = true -> op_obj o = Some id -> lookup w id = Some (wrap c) ->
    acts w o (fun w' => ctr_crypt K E bs batch wrap w' id c inp size outnull).
  Proof.
    intros Hs Ht L. destruct c as [| |be n st]; cbn [ctr_crypt]; try (apply acts_none; reflexivity).
    destruct inp as [data|]; [|apply acts_none; reflexivity].
    destruct outnull; [apply acts_none; reflexivity|].
    destruct (crypt K E bs (batch be) st (pad_to (N.to_nat size) data)) as [[st' out]|];
      [|apply acts_none; reflexivity].
    eapply acts_upd; eauto. rewrite !wrap_owned. reflexivity.
  Qed.
End CtrEff.

Section ParEff.
  Variable K : Type.
  Variable bs : nat.
  Variable wide : bool.
  Variable zero_key : K.
  Variable wrap : parobj K -> obj.
  Hypothesis wrap_owned : forall p, owned (wrap p) = pown p.

  Lemma par_init_acts w k id p :
    acts w (OInit k (Some id)) (fun w' => par_init K wide zero_key wrap w' id p).
  Proof.
    unfold par_init. destruct (alloc (w_heap w)) as [[r h] ev] eqn:Ha.
    eexists (eff_heap_store h id (wrap match r with
                                       | Some n => PObj (choose wide w) (Some (n, _)) _
                                       | None => par_inert p
                                       end)), _. split.
    - eapply SS_init; eauto. rewrite wrap_owned. destruct r, p; reflexivity.
    - intros w' He. rewrite <- (same_env_choose wide w w' He). destruct He as [<- _].
      rewrite Ha. destruct r, p; reflexivity.
  Qed.
  Lemma par_cleanup_acts w k id p : lookup w id = Some (wrap p) ->
    acts w (OCleanup k (Some id)) (fun w' => par_cleanup K wrap w' id p).
  Proof.
    intros L. destruct p as [f|vt [[n key]|] ps]; cbn [par_cleanup];
      try (apply acts_none; reflexivity).
    exists (eff_heap_store (release (w_heap w) n) id (wrap (PObj vt None ps))), [EFree n true; EDone].
    split.
    - eapply SS_cleanup; eauto; rewrite wrap_owned; reflexivity.
    - intros w' [<- _]. reflexivity.
  Qed.
  Lemma par_setter_acts w o id p f :
    is_setter o = true -> op_obj o = Some id -> lookup w id = Some (wrap p) ->
    acts w o (fun w' => par_setter K wrap w' id p f).
  Proof.
    intros Hs Ht L. destruct p as [fl|vt [[n key]|] ps]; cbn [par_setter];
      try (apply acts_none; reflexivity).
    destruct (f key) as [r k']. destruct (N.eqb r 0); [apply acts_none; reflexivity|].
    eapply acts_upd; eauto. rewrite !wrap_owned. reflexivity.
  Qed.
  Lemma par_run_acts w o p size f tw data :
    acts w o (fun w' => par_run K bs w' p size f tw data).
  Proof.
    destruct p as [fl|vt [[n key]|] ps]; cbn [par_run]; try (apply acts_none; reflexivity).
    destruct (negb _); apply acts_none; reflexivity.
  Qed.
End ParEff.

Lemma owned_OC128 : forall c, owned (OC128 c) = cown c. Proof. intros []; reflexivity. Qed.
Lemma owned_OC64 : forall c, owned (OC64 c) = cown c. Proof. intros []; reflexivity. Qed.
Lemma owned_OMC : forall c, owned (OMC c) = cown c. Proof. intros []; reflexivity. Qed.
Lemma owned_OP128 : forall p, owned (OP128 p) = pown p.
Proof. intros [|? [[]|] ?]; reflexivity. Qed.
Lemma owned_OP64 : forall p, owned (OP64 p) = pown p.
Proof. intros [|? [[]|] ?]; reflexivity. Qed.
Lemma owned_OMP : forall p, owned (OMP p) = pown p.
Proof. intros [|? [[]|] ?]; reflexivity. Qed.

Lemma acts_which_ctr K w o (c : ctrobj K) : acts w o (fun w' => (w', ctr_which K c)).
Proof. apply acts_none. destruct c; reflexivity. Qed.
Lemma acts_which_par K w o (p : parobj K) : acts w o (fun w' => (w', par_which K p)).
Proof. apply acts_none. destruct p; reflexivity. Qed.
Lemma acts_psize K w o (p : parobj K) : acts w o (fun w' => (w', par_psize_ev K p)).
Proof. apply acts_none. destruct p; reflexivity. Qed.

Create HintDb acts.
#[local] Hint Resolve owned_OC128 owned_OC64 owned_OMC owned_OP128 owned_OP64 owned_OMP
  ctr_init_acts ctr_cleanup_acts ctr_setter_acts ctr_setctr_acts ctr_crypt_acts
  par_init_acts par_cleanup_acts par_setter_acts par_run_acts
  acts_upd acts_setter acts_which_ctr acts_which_par acts_psize : acts.

(* the case analysis on an operation, with the names the sweeps over [step] use: k the kind tag,
   ob the object argument (id once it is known not to be NULL) *)
Ltac destruct_op o :=
  destruct o as [k id f|be| |c|a|kf| |k ob key size|k ob key size|k ob tw size
                |k ob key size rounds mode|k ob|k ob blk|k ob blk|ob blk tw|k ob
                |k ob|k ob|k ob c size|k ob inp size outnull|k ob data size|k ob data size
                |ob data tw size|k ob|k ob].

(* in step_eff, for an operation without an object argument: F w' := step w' o *)
Local Ltac step_itself := eexists; (split; [|intros ? _; reflexivity]).

(* step reads the object it is called on and the environment, nothing else of
   the world, and what it does to the world is one of the effects of [shape] *)
Lemma step_eff w o : exists e ev, shape w o e ev /\
  forall w', same_env w w' -> (forall id, op_obj o = Some id -> lookup w' id = lookup w id) ->
  step w' o = (apply_eff e w', ev).
Proof.
  (* F w' is step w' o with the object looked up in w instead of w'; step is
     unfolded once per operation, before the case analysis on kind and object,
     because every unfolding copies the whole of its body *)
  enough (exists F, acts w o F /\
            forall w', (forall id, op_obj o = Some id -> lookup w' id = lookup w id) ->
            step w' o = F w') as (F & (e & ev & Hs & HF) & Hst).
  { exists e, ev. split; [exact Hs|]. intros w' He Hl. rewrite (Hst w' Hl). apply HF, He. }
  destruct_op o.
  (* the operations without an object argument: F is step itself.  CpuPinned be is the real CPU
     clamped to back end be, so OCfgCpuReal pins to the widest, BV256 *)
  all: lazymatch goal with
       | |- context [ONew] =>
           step_itself; exists (eff_store id (new_obj k f)), []; split; [eapply SS_new|]; reflexivity
       | |- context [OCfgBackend] =>
           step_itself; exists (eff_cpu (CpuPinned be)), []; split; [apply SS_cfg|]; reflexivity
       | |- context [OCfgCpuReal] =>
           step_itself; exists (eff_cpu (CpuPinned BV256)), []; split; [apply SS_cfg|]; reflexivity
       | |- context [OCfgCpuSim] =>
           step_itself; exists (eff_cpu (CpuSim c)), []; split; [apply SS_cfg|]; reflexivity
       | |- context [OCfgAmbient] =>
           step_itself; exists (eff_ambient a), []; split; [apply SS_cfg|]; reflexivity
       | |- context [OCfgFail] =>
           step_itself;
           exists (eff_heap {| h_next := h_next (w_heap w); h_live := h_live (w_heap w);
                               h_fail := kf |}), [];
           (split; [apply SS_cfg; reflexivity|]); intros w' [Hh _]; rewrite Hh; reflexivity
       | |- context [OProbe] =>
           step_itself; eexists eff_none, _;
           (split; [|intros w' (_ & Hc & Ha & Hb & Hr); cbn [step]; unfold cur_cpu;
                     rewrite <- Hc, <- Ha, <- Hb, <- Hr; reflexivity]);
           apply SS_none; reflexivity
       | |- _ => idtac
       end.
  (* a NULL object *)
  all: (destruct ob as [id|];
        [|try destruct k; (eexists; split; [|intros w' _; reflexivity]); apply acts_none; reflexivity]).
  all: (eexists; split; [|intros w' Hl; unfold step; rewrite (Hl _ eq_refl); reflexivity]).
  (* kinds the operation does not exist for, then the object found under id *)
  all: try destruct k; cbv beta iota; try (apply acts_none; reflexivity).
  all: destruct (lookup w id) as [[]|] eqn:L; cbv beta iota.
  all: try (apply acts_none; reflexivity).
  all: eauto with acts.
  (* OSwap on a MANTIS parallel object, whose cases are written out in step *)
  destruct p as [|? [[]|] ?]; try (apply acts_none; reflexivity). eauto with acts.
Qed.

Lemma step_shape w o : exists e ev, shape w o e ev /\ step w o = (apply_eff e w, ev).
Proof.
  destruct (step_eff w o) as (e & ev & Hs & H). exists e, ev. split; [exact Hs|].
  apply H; [apply same_env_refl | reflexivity].
Qed.

(* C15: cleanup of NULL / inert objects does nothing *)
Theorem cleanup_inert_noop : forall w k ob,
  (ob = None \/ exists id, ob = Some id /\ inert_at w id k) ->
  step w (OCleanup k ob) = (w, [EDone]).
Proof.
  intros w k ob [->|(id & -> & o & L & Hk & Hi)]; [reflexivity|].
  unfold obj_has_kind in Hk. subst k.
  destruct_obj o; try discriminate Hi; cbn [step obj_kind]; rewrite L; reflexivity.
Qed.

(* an inert object just stored stays put under cleanup *)
Lemma stored_inert w id x : is_inert x = true ->
  inert_at (store_obj w id x) id (obj_kind x) /\
  step (store_obj w id x) (OCleanup (obj_kind x) (Some id)) = (store_obj w id x, [EDone]).
Proof.
  intros Hi.
  assert (inert_at (store_obj w id x) id (obj_kind x)) as I.
  { exists x. split; [apply lookup_store_same|]. split; [reflexivity|exact Hi]. }
  split; [exact I|]. apply cleanup_inert_noop. eauto.
Qed.

Lemma step_cleanup w id o n : lookup w id = Some o -> owned o = Some n ->
  exists x, step w (OCleanup (obj_kind o) (Some id))
            = (store_obj (with_heap w (release (w_heap w) n)) id x, [EFree n true; EDone])
            /\ obj_kind x = obj_kind o /\ is_inert x = true.
Proof.
  intros L Ho.
  destruct_obj o; try discriminate Ho; injection Ho as ->; cbn [step obj_kind]; rewrite L;
    (eexists; split; [reflexivity|split; reflexivity]).
Qed.

(* init stores an object of the same kind and takes the heap alloc leaves: the
   object owns the block if there is one and is inert if there is none *)
Lemma step_init w id o r h ev : lookup w id = Some o -> heap_kind (obj_kind o) ->
  alloc (w_heap w) = (r, h, ev) ->
  exists x, step w (OInit (obj_kind o) (Some id))
            = (store_obj (with_heap w h) id x, ev ++ [ERet (if r then 1 else 0)%N])
            /\ obj_kind x = obj_kind o /\ owned x = r /\ (r = None -> is_inert x = true).
Proof.
  intros L Hh Ha. unfold heap_kind, ctr_kind, par_kind in Hh.
  destruct o as [| | | | |c|c|c|p|p|p]; cbn [obj_kind] in *;
    try (exfalso; intuition discriminate); cbn [step]; rewrite L;
    unfold ctr_init, par_init; rewrite Ha; destruct r; try destruct p;
    (eexists; split; [reflexivity|repeat split; first [reflexivity|discriminate]]).
Qed.

(* cleanup makes the object inert and releases its block; a second cleanup is a no-op *)
Theorem cleanup_releases : forall w k id n, live_at w id k n ->
  exists w', step w (OCleanup k (Some id)) = (w', [EFree n true; EDone]) /\
             inert_at w' id k /\
             h_live (w_heap w') = filter (fun m => negb (N.eqb m n)) (h_live (w_heap w)) /\
             h_next (w_heap w') = h_next (w_heap w) /\
             step w' (OCleanup k (Some id)) = (w', [EDone]).
Proof.
  intros w k id n (o & L & <- & Ho).
  destruct (step_cleanup w id o n L Ho) as (x & -> & <- & Hi).
  destruct (stored_inert (with_heap w (release (w_heap w) n)) id x Hi) as [I C].
  eexists. split; [reflexivity|]. auto 6.
Qed.

(* C16: allocation failure inside init *)
Theorem init_alloc_failure : forall w k id o,
  lookup w id = Some o -> obj_has_kind o k -> heap_kind k ->
  h_fail (w_heap w) = 1%N ->
  exists w', step w (OInit k (Some id)) = (w', [EAllocFail; ERet 0])
    /\ h_live (w_heap w') = h_live (w_heap w)
    /\ h_next (w_heap w') = h_next (w_heap w)
    /\ h_fail (w_heap w') = 0%N
    /\ inert_at w' id k
    /\ step w' (OCleanup k (Some id)) = (w', [EDone]).
Proof.
  intros w k id o L Hk Hh Hf. unfold obj_has_kind in Hk. subst k.
  destruct (step_init w id o _ _ _ L Hh (alloc_fail _ Hf)) as (x & -> & <- & _ & Hi).
  destruct (stored_inert (with_heap w (heap_failed (w_heap w))) id x (Hi eq_refl)) as [I C].
  eexists. split; [reflexivity|]. auto 7.
Qed.

(* every int-returning call on an inert object returns 0 and changes nothing *)
Theorem inert_object_rejects : forall w k id, inert_at w id k ->
  (In k [C128; C64; P128; P64] ->
     forall key size, step w (OSetKey k (Some id) key size) = (w, [ERet 0])) /\
  (In k [C128; C64] ->
     forall key size, step w (OSetTweakedKey k (Some id) key size) = (w, [ERet 0])) /\
  (In k [C128; C64; MC] ->
     forall tw size, step w (OSetTweak k (Some id) tw size) = (w, [ERet 0])) /\
  (In k [MC; MP] ->
     forall key size rounds mode,
       step w (OMSetKey k (Some id) key size rounds mode) = (w, [ERet 0])) /\
  (In k [C128; C64; MC] ->
     forall c size, step w (OSetCtr k (Some id) c size) = (w, [ERet 0])) /\
  (In k [C128; C64; MC] ->
     forall inp size outnull, step w (OCrypt k (Some id) inp size outnull) = (w, [ERet 0])) /\
  (In k [P128; P64] ->
     forall data size, step w (OParEnc k (Some id) data size) = (w, [ERet 0])) /\
  (In k [P128; P64] ->
     forall data size, step w (OParDec k (Some id) data size) = (w, [ERet 0])) /\
  (k = MP ->
     forall data tw size, step w (OMParCrypt (Some id) data tw size) = (w, [ERet 0])).
Proof.
  intros w k id (o & L & Hk & Hi). unfold obj_has_kind in Hk. subst k.
  destruct_obj o; try discriminate Hi; cbn [obj_kind];
    repeat split; intros Hin; intros;
    first [ cbn [step]; rewrite L; reflexivity
          | exfalso; cbn in Hin; intuition discriminate
          | discriminate Hin ].
Qed.

Theorem inert_rejects_set_key : forall w k id, inert_at w id k ->
  In k [C128; C64; P128; P64] ->
  forall key size, step w (OSetKey k (Some id) key size) = (w, [ERet 0]).
Proof. intros w k id H. apply (inert_object_rejects w k id H). Qed.
Theorem inert_rejects_set_tweaked_key : forall w k id, inert_at w id k ->
  In k [C128; C64] ->
  forall key size, step w (OSetTweakedKey k (Some id) key size) = (w, [ERet 0]).
Proof. intros w k id H. apply (inert_object_rejects w k id H). Qed.
Theorem inert_rejects_set_tweak : forall w k id, inert_at w id k ->
  In k [C128; C64; MC] ->
  forall tw size, step w (OSetTweak k (Some id) tw size) = (w, [ERet 0]).
Proof. intros w k id H. apply (inert_object_rejects w k id H). Qed.
Theorem inert_rejects_mantis_set_key : forall w k id, inert_at w id k ->
  In k [MC; MP] ->
  forall key size rounds mode,
    step w (OMSetKey k (Some id) key size rounds mode) = (w, [ERet 0]).
Proof. intros w k id H. apply (inert_object_rejects w k id H). Qed.
Theorem inert_rejects_set_counter : forall w k id, inert_at w id k ->
  In k [C128; C64; MC] ->
  forall c size, step w (OSetCtr k (Some id) c size) = (w, [ERet 0]).
Proof. intros w k id H. apply (inert_object_rejects w k id H). Qed.
Theorem inert_rejects_crypt : forall w k id, inert_at w id k ->
  In k [C128; C64; MC] ->
  forall inp size outnull, step w (OCrypt k (Some id) inp size outnull) = (w, [ERet 0]).
Proof. intros w k id H. apply (inert_object_rejects w k id H). Qed.
Theorem inert_rejects_par_encrypt : forall w k id, inert_at w id k ->
  In k [P128; P64] ->
  forall data size, step w (OParEnc k (Some id) data size) = (w, [ERet 0]).
Proof. intros w k id H. apply (inert_object_rejects w k id H). Qed.
Theorem inert_rejects_par_decrypt : forall w k id, inert_at w id k ->
  In k [P128; P64] ->
  forall data size, step w (OParDec k (Some id) data size) = (w, [ERet 0]).
Proof. intros w k id H. apply (inert_object_rejects w k id H). Qed.
Theorem inert_rejects_mantis_par_crypt : forall w id, inert_at w id MP ->
  forall data tw size, step w (OMParCrypt (Some id) data tw size) = (w, [ERet 0]).
Proof. intros w id H. apply (inert_object_rejects w MP id H). reflexivity. Qed.

Lemma alloc_nofree h r h' ev c : alloc h = (r, h', ev) -> nofree (ev ++ [ERet c]) = true.
Proof. unfold alloc. destruct (N.eqb (h_fail h) 1); intros [= <- <- <-]; reflexivity. Qed.

(* in one step: every free is of wiped memory, and is the cleanup of an object that owns the block *)
Lemma step_free_inv w o n z : In (EFree n z) (snd (step w o)) ->
  z = true /\ exists k id old x,
    o = OCleanup k (Some id) /\ lookup w id = Some old /\ owned old = Some n /\ owned x = None /\
    fst (step w o) = store_obj (with_heap w (release (w_heap w) n)) id x.
Proof.
  destruct (step_shape w o) as (e & ev & Hs & ->). cbn [fst snd]. intros Hin.
  destruct Hs;
    try (exfalso; eapply nofree_spec; [|exact Hin]; first [eassumption|eapply alloc_nofree; eassumption]);
    try (destruct Hin; fail); destruct Hin as [C|[C|[]]]; try discriminate C.
  injection C as -> <-. split; [reflexivity|]. eexists _, _, _, _. repeat split; eassumption.
Qed.

(* C17 *)
Theorem every_free_is_wiped : forall ops w n z,
  In (EFree n z) (concat (snd (run w ops))) -> z = true.
Proof.
  induction ops as [|o ops IH]; intros w n z H.
  - destruct H.
  - rewrite run_cons in H. cbn [snd concat] in H. apply in_app_or in H. destruct H as [H|H].
    + eapply step_free_inv. eassumption.
    + eapply IH. eassumption.
Qed.

Lemma heapinv_init : forall b c, HeapInv (init_world b c).
Proof.
  intros. unfold HeapInv. cbn. repeat split; try constructor. intros n [].
Qed.

Lemma owned_blocks_split w id : HeapInv w ->
  Permutation (olist (obind owned (lookup w id)) ++ blocks_of (others (w_objs w) id)) (h_live (w_heap w)).
Proof.
  intros (Hid & _ & _ & _ & Hp).
  eapply Permutation_trans; [apply Permutation_sym, (blocks_split (w_objs w) id Hid)|exact Hp].
Qed.

(* storing x under id, with heap h: the live blocks of h must be x's block
   and the blocks of the other objects *)
Lemma heapinv_store w h id x : HeapInv w ->
  NoDup (h_live h) -> (forall n, In n (h_live h) -> (n < h_next h)%N) ->
  Permutation (olist (owned x) ++ blocks_of (others (w_objs w) id)) (h_live h) ->
  HeapInv (store_obj (with_heap w h) id x).
Proof.
  intros (Hid & _) ND Hlt P. unfold HeapInv. rewrite owned_blocks_store.
  split; [apply store_ids_nodup, Hid|]. split; [exact ND|]. split; [exact Hlt|].
  split; [|exact P]. eapply Permutation_NoDup; [apply Permutation_sym, P|exact ND].
Qed.

(* replacing id's object by one that owns the same (in particular: creating a
   fresh id, or overwriting an object that owns nothing) *)
Lemma heapinv_upd w id x :
  HeapInv w -> obind owned (lookup w id) = owned x -> HeapInv (store_obj w id x).
Proof.
  intros H Heq. pose proof (owned_blocks_split w id H) as S. rewrite Heq in S.
  apply (heapinv_store w (w_heap w) id x H); [apply H|apply H|exact S].
Qed.

Lemma heapinv_cleanup w id old n x :
  HeapInv w -> lookup w id = Some old -> owned old = Some n -> owned x = None ->
  HeapInv (store_obj (with_heap w (release (w_heap w) n)) id x) /\
  ~ In n (blocks_of (others (w_objs w) id)) /\ In n (h_live (w_heap w)).
Proof.
  intros H L Hold Hx. pose proof H as (_ & ND & Hlt & _).
  pose proof (owned_blocks_split w id H) as S. rewrite L in S. cbn [obind] in S.
  rewrite Hold in S. cbn [olist app] in S.
  pose proof (Permutation_NoDup (Permutation_sym S) ND) as ND'.
  apply NoDup_cons_iff in ND'. destruct ND' as [Hn _].
  split; [|split; [exact Hn|apply (Permutation_in _ S); left; reflexivity]].
  apply heapinv_store; [exact H|apply NoDup_filter, ND| |]; cbn [release h_live h_next].
  - intros m Hm. apply filter_In in Hm. apply Hlt, Hm.
  - rewrite Hx. cbn [olist app].
    rewrite <- (filter_absent (fun m => m) (blocks_of (others (w_objs w) id)) n) at 1
      by (rewrite map_id; exact Hn).
    apply (perm_filter _ (fun m => negb (N.eqb m n))) in S.
    cbn [filter] in S. rewrite N.eqb_refl in S. exact S.
Qed.

Lemma heapinv_fresh w : HeapInv w -> ~ In (h_next (w_heap w)) (h_live (w_heap w)).
Proof. intros (_ & _ & Hlt & _) C. apply Hlt in C. lia. Qed.

Lemma owns_nothing_spec : forall w id, owns_nothing w id = true ->
  obind owned (lookup w id) = None.
Proof.
  unfold owns_nothing. intros w id H. destruct (obind owned (lookup w id)); [discriminate|reflexivity].
Qed.

Theorem heapinv_step : forall w o,
  HeapInv w -> disciplined w o = true -> HeapInv (fst (step w o)).
Proof.
  intros w o H D. destruct (step_shape w o) as (e & ev & Hs & ->). cbn [fst].
  pose proof H as (_ & ND & Hlt & _).
  destruct Hs as [|e _ Hobjs Hlive Hnext|id old x ev _ _ L Hx|k id f ->|k id x r h ev -> Ha Hx
                 |k id old n x -> L Hold Hx]; cbn [apply_eff].
  - exact H.
  - unfold HeapInv, owned_blocks. rewrite Hobjs, Hlive, Hnext. exact H.
  - apply heapinv_upd; [exact H|]. rewrite L. cbn [obind]. congruence.
  - apply heapinv_upd; [exact H|]. rewrite (owns_nothing_spec w id D).
    destruct k; cbn [new_obj]; destruct (is_zero_byte f); reflexivity.
  - (* the object owns nothing before; a failed alloc leaves the live blocks alone,
       a successful one adds the fresh block h_next, which the new object owns *)
    pose proof (owned_blocks_split w id H) as S. rewrite (owns_nothing_spec w id D) in S.
    unfold alloc in Ha. destruct (N.eqb (h_fail (w_heap w)) 1); injection Ha as <- <- <-;
      (apply heapinv_store; [exact H| | |]); cbn [h_live h_next]; try assumption.
    + rewrite Hx. exact S.
    + constructor; [apply heapinv_fresh, H|exact ND].
    + intros n [<-|Hn]; [|apply Hlt in Hn]; lia.
    + rewrite Hx. constructor. exact S.
  - apply (heapinv_cleanup w id old n x H L Hold Hx).
Qed.

Theorem heapinv_run : forall ops w,
  HeapInv w -> disciplined_history w ops -> HeapInv (fst (run w ops)).
Proof.
  induction ops as [|o ops IH]; intros w H D.
  - exact H.
  - rewrite run_cons. cbn [fst]. destruct D as [D1 D2].
    apply IH; [apply heapinv_step; assumption|assumption].
Qed.

(* C15: every free is of a live block that the object owned, it happens once
   (the block is neither live nor owned afterwards), and the block is wiped *)
Theorem free_is_of_owned_live_block : forall w o n z,
  HeapInv w -> In (EFree n z) (snd (step w o)) ->
  z = true /\ In n (h_live (w_heap w)) /\
  ~ In n (h_live (w_heap (fst (step w o)))) /\
  ~ In n (owned_blocks (fst (step w o))) /\
  exists k id, o = OCleanup k (Some id) /\ option_map owned (lookup w id) = Some (Some n).
Proof.
  intros w o n z H Hin.
  destruct (step_free_inv w o n z Hin) as (-> & k & id & old & x & -> & L & Hold & Hx & ->).
  destruct (heapinv_cleanup w id old n x H L Hold Hx) as (_ & Hn & Hl).
  split; [reflexivity|]. split; [exact Hl|]. split; [apply filter_ne_not_in|]. split.
  - rewrite owned_blocks_store, Hx. exact Hn.
  - exists k, id. split; [reflexivity|]. rewrite L. cbn [option_map]. congruence.
Qed.

Theorem no_leak : forall w, HeapInv w -> owned_blocks w = [] -> h_live (w_heap w) = [].
Proof.
  intros w (_ & _ & _ & _ & Hp) E. rewrite E in Hp. apply Permutation_nil. exact Hp.
Qed.

(* leak freedom along a disciplined history from the initial world *)
Corollary no_leak_run : forall b c ops,
  disciplined_history (init_world b c) ops ->
  owned_blocks (fst (run (init_world b c) ops)) = [] ->
  h_live (w_heap (fst (run (init_world b c) ops))) = [].
Proof.
  intros b c ops D E. apply no_leak; [|exact E].
  apply heapinv_run; [apply heapinv_init|exact D].
Qed.

(* an inert object can be initialised (again) and is then live on a fresh block *)
Theorem reinit_after_cleanup : forall w k id,
  HeapInv w -> inert_at w id k -> h_fail (w_heap w) <> 1%N ->
  exists w', step w (OInit k (Some id)) = (w', [EAlloc (h_next (w_heap w)); ERet 1]) /\
             option_map owned (lookup w' id) = Some (Some (h_next (w_heap w))) /\
             live_at w' id k (h_next (w_heap w)) /\
             ~ In (h_next (w_heap w)) (h_live (w_heap w)) /\
             h_live (w_heap w') = h_next (w_heap w) :: h_live (w_heap w) /\
             HeapInv w'.
Proof.
  intros w k id H (o & L & <- & Hi) Hf.
  destruct (step_init w id o _ _ _ L (inert_heap_kind o Hi) (alloc_ok _ Hf))
    as (x & E & Hk & Hx & _).
  eexists. split; [exact E|]. rewrite lookup_store_same. cbn [option_map]. rewrite Hx.
  split; [reflexivity|]. split.
  - exists x. split; [apply lookup_store_same|]. split; assumption.
  - split; [apply heapinv_fresh, H|].
    split; [reflexivity|].
    replace (store_obj _ id x) with (fst (step w (OInit (obj_kind o) (Some id)))) by (rewrite E; reflexivity).
    apply heapinv_step; [exact H|]. cbn [disciplined]. unfold owns_nothing. rewrite L. cbn [obind].
    rewrite (inert_owns_nothing o Hi). reflexivity.
Qed.

Print Assumptions heapinv_init.
Print Assumptions heapinv_step.
Print Assumptions heapinv_run.
Print Assumptions free_is_of_owned_live_block.
Print Assumptions every_free_is_wiped.
Print Assumptions cleanup_inert_noop.
Print Assumptions cleanup_releases.
Print Assumptions no_leak.
Print Assumptions no_leak_run.
Print Assumptions reinit_after_cleanup.
Print Assumptions init_alloc_failure.
Print Assumptions inert_object_rejects.
Print Assumptions inert_rejects_set_key.
Print Assumptions inert_rejects_set_tweaked_key.
Print Assumptions inert_rejects_set_tweak.
Print Assumptions inert_rejects_mantis_set_key.
Print Assumptions inert_rejects_set_counter.
Print Assumptions inert_rejects_crypt.
Print Assumptions inert_rejects_par_encrypt.
Print Assumptions inert_rejects_par_decrypt.
Print Assumptions inert_rejects_mantis_par_crypt.
Print Assumptions step_shape.
