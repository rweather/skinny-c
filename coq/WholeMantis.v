(* WholeMantis.v — the WHOLE functions mantis_ecb_crypt / mantis_ecb_crypt_tweaked of src/mantis-cipher.c (as translated
   into SIR.v by translator/c2sir.py and flattened at a round count r) against the model (ModelCipher.mantis_crypt /
   mantis_crypt_tweaked = SpecMantis.mantis_core, the paper's MANTIS-r), for ALL blocks, keys, tweaks and prior contents of
   the output buffer and of the locals.

   The flattened code is cut at its S-box layers (SIRCheck.split_runs / check_block).  The specification is a list of
   steps on a CANONICAL eight-region memory
        0 = output, 1 = input, 2 = key schedule object, 3 = tweak source, 4 = rc table, 5 = tk, 6 = k1, 7 = state
   written as tagged micro steps (h, S-box layer, linear layers, ...) which [merge] groups exactly as split_runs groups the
   code; a [layout] maps the canonical regions onto the regions of the translated function (two layouts: the tweak comes
   from the schedule object at offset 24, or from its own parameter). *)
From Coq Require Import List NArith Lia.
From Skinny Require Import ListFacts Bits SpecSkinny SpecMantis IR SIR Anf IRCheck KernelSpecs KernelHom SIRCheck
                           WholeSpecs Frame SIRProofs ModelCipher KernelBridge WholeBridge.
Import ListNotations.

Section Merge.
  Variable M : Type.
  Notation F := (M -> M).
  Fixpoint merge_from (l : list (bool * F)) (k : bool) (f : F) : list F :=
    match l with
    | [] => [f]
    | (k', g) :: l' => if Bool.eqb k k' then merge_from l' k (fun m => g (f m)) else f :: merge_from l' k' g
    end.
  Definition merge (l : list (bool * F)) : list F :=
    match l with [] => [] | (k, g) :: l' => merge_from l' k g end.

  Lemma merge_from_fold : forall l k f m,
    fold_left (fun acc g => g acc) (merge_from l k f) m = fold_left (fun acc (g : bool * F) => snd g acc) l (f m).
  Proof.
    induction l as [|[k' g] l IH]; intros k f m; [reflexivity|].
    cbn [merge_from]. destruct (Bool.eqb k k'); [rewrite IH; reflexivity|].
    cbn [fold_left snd]. rewrite IH. reflexivity.
  Qed.
  Lemma merge_fold : forall l m,
    fold_left (fun acc g => g acc) (merge l) m = fold_left (fun acc (g : bool * F) => snd g acc) l m.
  Proof. intros [|[k g] l] m; [reflexivity|]. unfold merge. rewrite merge_from_fold. reflexivity. Qed.
End Merge.

Definition tagged_hom (a : bool * (mem poly -> mem poly)) (b : bool * (mem bool -> mem bool)) : Prop :=
  fst a = fst b /\ homU (snd a) (snd b).
Lemma merge_from_hom : forall lP lB, Forall2 tagged_hom lP lB -> forall k fP fB, homU fP fB ->
  Forall2 homU (merge_from _ lP k fP) (merge_from _ lB k fB).
Proof.
  intros lP lB H. induction H as [|[k1 g1] [k2 g2] lP lB [Hk Hg] Hr IH]; intros k fP fB Hf.
  - constructor; [exact Hf | constructor].
  - cbn [fst snd] in Hk, Hg. subst k2. cbn [merge_from]. destruct (Bool.eqb k k1).
    + apply IH. apply (homU_compose fP fB g1 g2 Hf Hg).
    + constructor; [exact Hf | apply IH; exact Hg].
Qed.
Lemma merge_hom : forall lP lB, Forall2 tagged_hom lP lB -> Forall2 homU (merge _ lP) (merge _ lB).
Proof.
  intros lP lB H. destruct H as [|[k1 g1] [k2 g2] lP lB [Hk Hg] Hr]; [constructor|].
  cbn [fst snd] in Hk, Hg. subst k2. unfold merge. apply merge_from_hom; assumption.
Qed.

Section Canon.
  Variable B : Type.
  Variables (bx ba : B -> B -> B) (b0 b1 : B).
  Notation reg := (reg B).
  Notation st64 := (state64_of_reg B b0).
  Notation rg64 := (reg_of_state64 B).
  Notation C4 := (c4 B).
  Notation sx4 := (sx (c4 B) (cx4 B bx)).

  Definition rd8 (l : list (list B)) (off : nat) : state C4 := st64 (firstn 8 (skipn off l)).
  Definition cst (n : N) : state C4 := const_state C4 (c4nib B b0 b1) n.
  Definition rc_bytes : list (list B) := concat (map (fun n => rg64 (cst n)) RCs).
  Definition mkc (o i ks tw rc T K X : list (list B)) : mem B := [o; i; ks; tw; rc; T; K; X].
  Notation keep c := (mkc (reg c 0) (reg c 1) (reg c 2) (reg c 3)).

  (* rc table, tk := tweak, k1 := ks->k1, state := input ^ k0 ^ k1 ^ tk *)
  Definition c_init (toff : nat) (c : mem B) : mem B :=
    let k0 := rd8 (reg c 2) 0 in let k1 := rd8 (reg c 2) 16 in let t := rd8 (reg c 3) toff in
    keep c rc_bytes (rg64 t) (rg64 k1) (rg64 (sx4 (st64 (reg c 1)) (sx4 k0 (sx4 k1 t)))).
  Definition c_h (c : mem B) : mem B :=
    keep c (reg c 4) (rg64 (h_perm C4 (st64 (reg c 5)))) (reg c 6) (reg c 7).
  Definition c_hinv (c : mem B) : mem B :=
    keep c (reg c 4) (rg64 (h_perm_inv C4 (st64 (reg c 5)))) (reg c 6) (reg c 7).
  Definition c_sub (c : mem B) : mem B :=
    keep c (reg c 4) (reg c 5) (reg c 6) (rg64 (smap C4 (Sb0 B bx ba b1) (st64 (reg c 7)))).
  Definition c_mix (c : mem B) : mem B :=
    keep c (reg c 4) (reg c 5) (reg c 6) (rg64 (mix C4 (cx4 B bx) (st64 (reg c 7)))).
  Definition c_alpha (c : mem B) : mem B :=
    keep c (reg c 4) (reg c 5) (rg64 (sx4 (st64 (reg c 6)) (cst ALPHA))) (reg c 7).
  (* forward linear layer of round i: state := M (P (state ^ rc[i] ^ k1 ^ tk)) *)
  Definition c_lf (i : nat) (c : mem B) : mem B :=
    keep c (reg c 4) (reg c 5) (reg c 6)
      (rg64 (mix C4 (cx4 B bx) (permute_cells C4
         (sx4 (sx4 (st64 (reg c 7)) (rd8 (reg c 4) (8 * i))) (sx4 (st64 (reg c 6)) (st64 (reg c 5))))))).
  (* backward linear layer of round j: state := P^-1 (M state) ^ k1 ^ tk ^ rc[j] *)
  Definition c_lb (j : nat) (c : mem B) : mem B :=
    keep c (reg c 4) (reg c 5) (reg c 6)
      (rg64 (sx4 (sx4 (permute_cells_inv C4 (mix C4 (cx4 B bx) (st64 (reg c 7))))
                      (sx4 (st64 (reg c 6)) (st64 (reg c 5)))) (rd8 (reg c 4) (8 * j)))).
  (* state ^= k0' ^ k1 ^ tk; output := state *)
  Definition c_fin (c : mem B) : mem B :=
    let y := rg64 (sx4 (st64 (reg c 7)) (sx4 (rd8 (reg c 2) 8) (sx4 (st64 (reg c 6)) (st64 (reg c 5))))) in
    mkc y (reg c 1) (reg c 2) (reg c 3) (reg c 4) (reg c 5) (reg c 6) y.

  (* tag [true] = an S-box layer (a table-call run of the code), [false] = the straight-line code between two of them;
     [merge] composes neighbours of equal tag, which gives one step per segment of [split_runs] *)
  Definition fwd_round (i : nat) : list (bool * (mem B -> mem B)) := [(false, c_h); (true, c_sub); (false, c_lf i)].
  Definition bwd_round (j : nat) : list (bool * (mem B -> mem B)) := [(false, c_lb j); (true, c_sub); (false, c_hinv)].
  Definition micro (toff r : nat) : list (bool * (mem B -> mem B)) :=
    [(false, c_init toff)] ++ concat (map fwd_round (seq 0 r))
    ++ [(true, c_sub); (false, c_mix); (true, c_sub); (false, c_alpha)]
    ++ concat (map bwd_round (rev (seq 0 r))) ++ [(false, c_fin)].

  Record layout : Type := { lo : nat; li : nat; lks : nat; ltw : nat; lrc : nat; lT : nat; lK : nat; lX : nat }.
  Definition perm (L : layout) (m : mem B) : mem B :=
    proj [lo L; li L; lks L; ltw L; lrc L; lT L; lK L; lX L] m.
  Definition unperm (L : layout) (c m : mem B) : mem B :=
    set_nth (lo L) (reg c 0) (set_nth (lrc L) (reg c 4) (set_nth (lT L) (reg c 5)
      (set_nth (lK L) (reg c 6) (set_nth (lX L) (reg c 7) m)))).
  Definition onlay (L : layout) (f : mem B -> mem B) (m : mem B) : mem B := unperm L (f (perm L m)) m.
  Definition msteps (L : layout) (toff r : nat) : list (mem B -> mem B) := map (onlay L) (merge _ (micro toff r)).
End Canon.

(* MantisKey_t (include/mantis-cipher.h) = k0, k0prime, k1, tweak (8 bytes each, offsets 0 / 8 / 16 / 24), unsigned rounds at
   offset 32, padded to sizeof = 40; the rc table has MANTIS_MAX_ROUNDS = 8 entries of 8 bytes.  Layout A is
   mantis_ecb_crypt (no tweak parameter: region 2 serves as schedule and as tweak source), layout B mantis_ecb_crypt_tweaked. *)
Definition layA : layout := {| lo := 0; li := 1; lks := 2; ltw := 2; lrc := 3; lT := 4; lK := 5; lX := 6 |}.
Definition layB : layout := {| lo := 0; li := 1; lks := 3; ltw := 2; lrc := 4; lT := 5; lK := 6; lX := 7 |}.
Definition msizesA : list nat := [8; 8; 40; 64; 8; 8; 8].
Definition msizesB : list nat := [8; 8; 8; 40; 64; 8; 8; 8].

Section CanonHom.
  Variables B1 B2 : Type.
  Variables (bx1 ba1 : B1 -> B1 -> B1) (z1 o1 : B1).
  Variables (bx2 ba2 : B2 -> B2 -> B2) (z2 o2 : B2).
  Variable h : B1 -> B2.
  Hypothesis h_bx : forall a b, h (bx1 a b) = bx2 (h a) (h b).
  Hypothesis h_ba : forall a b, h (ba1 a b) = ba2 (h a) (h b).
  Hypothesis h_z : h z1 = z2.
  Hypothesis h_o : h o1 = o2.
  Notation hb := (map (map h)).
  Notation hm := (map (map (map h))).
  Notation H4 := (h4 B1 B2 h).
  Notation sm4 := (smapS (c4 B1) (c4 B2) (h4 B1 B2 h)).
  Let Hcx4 := h4_cx4 B1 B2 bx1 bx2 h h_bx.
  Let Hst64 := state64_of_reg_homG B1 B2 z1 z2 h h_z.
  Let Hrg := reg_of_state64_homG B1 B2 h.
  Let Hreg := reg_homG B1 B2 h.

  Lemma rd8_homG : forall l off, sm4 (rd8 B1 z1 l off) = rd8 B2 z2 (hb l) off.
  Proof. intros l off. unfold rd8. rewrite Hst64, skipn_map, firstn_map. reflexivity. Qed.
  Lemma cst_homG : forall n, sm4 (cst B1 z1 o1 n) = cst B2 z2 o2 n.
  Proof.
    intros n. unfold cst, const_state. cbv zeta. cbv [smapS rmapS].
    pair_eq; apply (h4_c4nib B1 B2 z1 o1 z2 o2 h h_z h_o).
  Qed.
  Lemma rc_bytes_homG : hb (rc_bytes B1 z1 o1) = rc_bytes B2 z2 o2.
  Proof.
    unfold rc_bytes. rewrite concat_map, map_map. f_equal. apply map_ext. intros n.
    rewrite Hrg, cst_homG. reflexivity.
  Qed.

  Ltac step_hom := intros c; cbv beta delta [c_init c_h c_hinv c_sub c_mix c_alpha c_lf c_lb c_fin mkc] zeta; cbn [map];
    rewrite ?Hreg, ?Hrg.
  Lemma c_init_homG : forall toff c, hm (c_init B1 bx1 z1 o1 toff c) = c_init B2 bx2 z2 o2 toff (hm c).
  Proof.
    intros toff. step_hom. rewrite !(smapS_sx _ _ H4 _ _ Hcx4), !rd8_homG, Hst64, rc_bytes_homG. reflexivity.
  Qed.
  Lemma c_h_homG : forall c, hm (c_h B1 z1 c) = c_h B2 z2 (hm c).
  Proof. step_hom. rewrite smapS_h_perm, Hst64. reflexivity. Qed.
  Lemma c_hinv_homG : forall c, hm (c_hinv B1 z1 c) = c_hinv B2 z2 (hm c).
  Proof. step_hom. rewrite smapS_h_perm_inv, Hst64. reflexivity. Qed.
  Lemma c_sub_homG : forall c, hm (c_sub B1 bx1 ba1 z1 o1 c) = c_sub B2 bx2 ba2 z2 o2 (hm c).
  Proof.
    step_hom.
    rewrite (smapS_smap _ _ H4 (Sb0 B1 bx1 ba1 o1) (Sb0 B2 bx2 ba2 o2) (h4_Sb0 B1 B2 bx1 ba1 o1 bx2 ba2 o2 h h_bx h_ba h_o)).
    rewrite Hst64. reflexivity.
  Qed.
  Lemma c_mix_homG : forall c, hm (c_mix B1 bx1 z1 c) = c_mix B2 bx2 z2 (hm c).
  Proof. step_hom. rewrite (smapS_mix _ _ H4 _ _ Hcx4), Hst64. reflexivity. Qed.
  Lemma c_alpha_homG : forall c, hm (c_alpha B1 bx1 z1 o1 c) = c_alpha B2 bx2 z2 o2 (hm c).
  Proof. step_hom. rewrite (smapS_sx _ _ H4 _ _ Hcx4), cst_homG, Hst64. reflexivity. Qed.
  Lemma c_lf_homG : forall i c, hm (c_lf B1 bx1 z1 i c) = c_lf B2 bx2 z2 i (hm c).
  Proof.
    intros i. step_hom.
    rewrite (smapS_mix _ _ H4 _ _ Hcx4), smapS_permute_cells, !(smapS_sx _ _ H4 _ _ Hcx4), rd8_homG, !Hst64. reflexivity.
  Qed.
  Lemma c_lb_homG : forall j c, hm (c_lb B1 bx1 z1 j c) = c_lb B2 bx2 z2 j (hm c).
  Proof.
    intros j. step_hom.
    rewrite !(smapS_sx _ _ H4 _ _ Hcx4), smapS_permute_cells_inv, (smapS_mix _ _ H4 _ _ Hcx4), rd8_homG, !Hst64. reflexivity.
  Qed.
  Lemma c_fin_homG : forall c, hm (c_fin B1 bx1 z1 c) = c_fin B2 bx2 z2 (hm c).
  Proof. step_hom. rewrite !(smapS_sx _ _ H4 _ _ Hcx4), rd8_homG, !Hst64. reflexivity. Qed.

  Lemma perm_homG : forall L m, hm (perm B1 L m) = perm B2 L (hm m).
  Proof.
    intros L m. unfold perm, proj. rewrite map_map. apply map_ext. intros r. symmetry. exact (map_nth hb m [] r).
  Qed.
  Lemma unperm_homG : forall L c m, hm (unperm B1 L c m) = unperm B2 L (hm c) (hm m).
  Proof. intros L c m. unfold unperm. rewrite !set_nth_map, !Hreg. reflexivity. Qed.
End CanonHom.

Lemma onlay_homU : forall L fP fB, homU fP fB -> homU (onlay poly L fP) (onlay bool L fB).
Proof.
  intros L fP fB H rho m. unfold onlay, mmap, vmap.
  rewrite (unperm_homG poly bool (peval rho)). f_equal.
  rewrite <- (perm_homG poly bool (peval rho)). apply H.
Qed.

Notation microP := (micro poly pxor pand pzero pone).
Notation microB := (micro bool xorb andb false true).

Lemma micro_hom : forall toff r, Forall2 tagged_hom (microP toff r) (microB toff r).
Proof.
  intros toff r. unfold micro.
  repeat apply Forall2_app.
  - constructor; [split; [reflexivity | homU_by c_init_homG] | constructor].
  - apply Forall2_concat_map. intros i. unfold fwd_round.
    repeat (constructor; [split; [reflexivity|] |]); [homU_by c_h_homG | homU_by c_sub_homG | homU_by c_lf_homG | constructor].
  - repeat (constructor; [split; [reflexivity|] |]);
      [homU_by c_sub_homG | homU_by c_mix_homG | homU_by c_sub_homG | homU_by c_alpha_homG | constructor].
  - apply Forall2_concat_map. intros j. unfold bwd_round.
    repeat (constructor; [split; [reflexivity|] |]); [homU_by c_lb_homG | homU_by c_sub_homG | homU_by c_hinv_homG | constructor].
  - constructor; [split; [reflexivity | homU_by c_fin_homG] | constructor].
Qed.

Theorem msteps_hom : forall sizes L toff r,
  Forall2 (spec_hom sizes) (msteps poly pxor pand pzero pone L toff r) (msteps bool xorb andb false true L toff r).
Proof.
  intros sizes L toff r. apply Forall2_homU_spec_hom. unfold msteps.
  pose proof (merge_hom _ _ (micro_hom toff r)) as H.
  induction H; cbn [map]; constructor; [apply onlay_homU; assumption | assumption].
Qed.

(* [rg64] / [st64] of Section Canon at bool *)
Notation rgb := (reg_of_state64 bool).
Notation stb := (state64_of_reg bool false).
Notation cstb := (cst bool false true).
Notation RCB := (rc_bytes bool false true).
Notation ap := (fun (acc : mem bool) (g : bool * (mem bool -> mem bool)) => snd g acc).
Notation fwdB := (fwd nib bxor4 cnib4 (Sb0 bool xorb andb true)).
Notation bwdB := (bwd nib bxor4 cnib4 (Sb0 bool xorb andb true)).

Lemma rgb_len : forall s : state nib, length (rgb s) = 8.
Proof. intros s. dstate s. reflexivity. Qed.
Lemma stb_rgb : forall s : state nib, stb (rgb s) = s.
Proof. exact (state64_of_reg_of_state64 bool false). Qed.
Lemma skipn8_rgb : forall (s : state nib) l, skipn 8 (rgb s ++ l) = l.
Proof. intros s l. exact (skipn_app_exact _ _ 8 (rgb_len s)). Qed.
Lemma rd8_app0 : forall (s : state nib) l, rd8 bool false (rgb s ++ l) 0 = s.
Proof.
  intros s l. unfold rd8. cbn [skipn]. rewrite (firstn_app_exact _ _ 8 (rgb_len s)). apply stb_rgb.
Qed.
Lemma rd8_skip8 : forall (s : state nib) l off, rd8 bool false (rgb s ++ l) (8 + off) = rd8 bool false l off.
Proof.
  intros s l off. unfold rd8. rewrite skipn_add, skipn8_rgb. reflexivity.
Qed.
Lemma rd8_rc : forall i, i < 8 -> rd8 bool false RCB (8 * i) = cstb (nth i RCs 0%N).
Proof.
  intros i Hi. do 8 (destruct i as [|i]; [vm_compute; reflexivity|]). lia.
Qed.

Section StepsB.
  Variables (o i ks tw rc : list (list bool)) (T K X : state nib).
  Notation CM rc T K X := ([o; i; ks; tw; rc; T; K; X] : mem bool).
  Notation sxb := (sx nib bxor4).

  Lemma c_init_mk : forall toff T0 K0 X0 k0 k1 t,
    rd8 bool false ks 0 = k0 -> rd8 bool false ks 16 = k1 -> rd8 bool false tw toff = t ->
    c_init bool xorb false true toff (CM rc T0 K0 X0) = CM RCB (rgb t) (rgb k1) (rgb (sxb (stb i) (sxb k0 (sxb k1 t)))).
  Proof. intros toff T0 K0 X0 k0 k1 t <- <- <-. reflexivity. Qed.
  Lemma c_h_mk : c_h bool false (CM rc (rgb T) (rgb K) (rgb X)) = CM rc (rgb (h_perm nib T)) (rgb K) (rgb X).
  Proof. unfold c_h, mkc, reg. cbn [nth]. rewrite stb_rgb. reflexivity. Qed.
  Lemma c_hinv_mk : c_hinv bool false (CM rc (rgb T) (rgb K) (rgb X)) = CM rc (rgb (h_perm_inv nib T)) (rgb K) (rgb X).
  Proof. unfold c_hinv, mkc, reg. cbn [nth]. rewrite stb_rgb. reflexivity. Qed.
  Lemma c_sub_mk : c_sub bool xorb andb false true (CM rc (rgb T) (rgb K) (rgb X))
    = CM rc (rgb T) (rgb K) (rgb (smap nib (Sb0 bool xorb andb true) X)).
  Proof. unfold c_sub, mkc, reg. cbn [nth]. rewrite stb_rgb. reflexivity. Qed.
  Lemma c_mix_mk : c_mix bool xorb false (CM rc (rgb T) (rgb K) (rgb X)) = CM rc (rgb T) (rgb K) (rgb (mix nib bxor4 X)).
  Proof. unfold c_mix, mkc, reg. cbn [nth]. rewrite stb_rgb. reflexivity. Qed.
  Lemma c_alpha_mk : c_alpha bool xorb false true (CM rc (rgb T) (rgb K) (rgb X))
    = CM rc (rgb T) (rgb (sxb K (cstb ALPHA))) (rgb X).
  Proof. unfold c_alpha, mkc, reg. cbn [nth]. rewrite stb_rgb. reflexivity. Qed.
  Lemma c_lf_mk : forall j, j < 8 -> c_lf bool xorb false j (CM RCB (rgb T) (rgb K) (rgb X))
    = CM RCB (rgb T) (rgb K) (rgb (mix nib bxor4 (permute_cells nib (sxb (sxb X (cstb (nth j RCs 0%N))) (sxb K T))))).
  Proof. intros j Hj. unfold c_lf, mkc, reg. cbn [nth]. rewrite !stb_rgb, (rd8_rc j Hj). reflexivity. Qed.
  Lemma c_lb_mk : forall j, j < 8 -> c_lb bool xorb false j (CM RCB (rgb T) (rgb K) (rgb X))
    = CM RCB (rgb T) (rgb K) (rgb (sxb (sxb (permute_cells_inv nib (mix nib bxor4 X)) (sxb K T)) (cstb (nth j RCs 0%N)))).
  Proof. intros j Hj. unfold c_lb, mkc, reg. cbn [nth]. rewrite !stb_rgb, (rd8_rc j Hj). reflexivity. Qed.
  Lemma c_fin_mk : forall k0p, rd8 bool false ks 8 = k0p ->
    c_fin bool xorb false (CM rc (rgb T) (rgb K) (rgb X))
    = let y := rgb (sxb X (sxb k0p (sxb K T))) in [y; i; ks; tw; rc; rgb T; rgb K; y].
  Proof. intros k0p <-. unfold c_fin, mkc, reg. cbn [nth]. rewrite !stb_rgb. reflexivity. Qed.
End StepsB.

Section ClosedM.
  Variables (o i ks tw : list (list bool)).
  Notation CM rc T K X := ([o; i; ks; tw; rc; T; K; X] : mem bool).

  Lemma fwd_closed : forall idx, Forall (fun j => j < 8) idx -> forall T K X,
    fold_left ap (concat (map (fwd_round bool xorb andb false true) idx)) (CM RCB (rgb T) (rgb K) (rgb X))
    = CM RCB (rgb (snd (fwdB (map (fun j => nth j RCs 0%N) idx) K T X))) (rgb K)
             (rgb (fst (fwdB (map (fun j => nth j RCs 0%N) idx) K T X))).
  Proof.
    induction 1 as [|j idx Hj _ IH]; intros T K X; [reflexivity|].
    cbn [map concat fwd_round app fold_left snd fwd].
    rewrite (c_h_mk o i ks tw), (c_sub_mk o i ks tw), (c_lf_mk o i ks tw _ _ _ j Hj). apply IH.
  Qed.

  Lemma bwd_closed : forall idx, Forall (fun j => j < 8) idx -> forall T K X,
    fold_left ap (concat (map (bwd_round bool xorb andb false true) idx)) (CM RCB (rgb T) (rgb K) (rgb X))
    = CM RCB (rgb (snd (bwdB (map (fun j => nth j RCs 0%N) idx) K T X))) (rgb K)
             (rgb (fst (bwdB (map (fun j => nth j RCs 0%N) idx) K T X))).
  Proof.
    induction 1 as [|j idx Hj _ IH]; intros T K X; [reflexivity|].
    cbn [map concat bwd_round app fold_left snd bwd].
    rewrite (c_lb_mk o i ks tw _ _ _ j Hj), (c_sub_mk o i ks tw), (c_hinv_mk o i ks tw). apply IH.
  Qed.

  Theorem micro_closed : forall toff r rc0 T0 K0 X0 (k0 k0p k1 t : state nib), r <= 8 ->
    rd8 bool false ks 0 = k0 -> rd8 bool false ks 8 = k0p -> rd8 bool false ks 16 = k1 -> rd8 bool false tw toff = t ->
    exists T' K',
    fold_left ap (microB toff r) (CM rc0 T0 K0 X0)
    = let y := rgb (mantis_core bool xorb andb false true r k0 k0p k1 t (stb i)) in [y; i; ks; tw; RCB; T'; K'; y].
  Proof.
    intros toff r rc0 T0 K0 X0 k0 k0p k1 t Hr Hk0 Hk0p Hk1 Ht.
    unfold micro. rewrite !fold_left_app. cbn [fold_left snd].
    rewrite (c_init_mk o i ks tw rc0 toff T0 K0 X0 k0 k1 t Hk0 Hk1 Ht).
    rewrite fwd_closed by (apply Forall_forall; intros j Hj; apply in_seq in Hj; lia).
    rewrite (c_sub_mk o i ks tw), (c_mix_mk o i ks tw), (c_sub_mk o i ks tw), (c_alpha_mk o i ks tw).
    rewrite bwd_closed by (apply Forall_forall; intros j Hj; apply in_rev in Hj; apply in_seq in Hj; lia).
    rewrite (c_fin_mk o i ks tw RCB _ _ _ k0p Hk0p), map_rev, (map_nth_seq RCs 0%N 0 r Hr).
    unfold mantis_core, core, cst, sub. cbn [skipn].
    change (c4x xorb) with bxor4. change (c4 bool) with nib. change (c4nib bool false true) with cnib4.
    destruct (fwdB (firstn r RCs) k1 t (sx nib bxor4 (stb i) (sx nib bxor4 k0 (sx nib bxor4 k1 t)))) as [x tr].
    cbn [fst snd].
    match goal with |- context [bwdB ?l ?k ?tt ?xx] => destruct (bwdB l k tt xx) as [y t0] end.
    eexists; eexists. reflexivity.
  Qed.
End ClosedM.

(* a step on the canonical memory keeps its eight regions and leaves the three it only reads (input, schedule, tweak source) as they are *)
Definition keeps_inputs (f : mem bool -> mem bool) : Prop :=
  forall c, length (f c) = 8 /\ reg bool (f c) 1 = reg bool c 1 /\ reg bool (f c) 2 = reg bool c 2 /\ reg bool (f c) 3 = reg bool c 3.
Lemma keeps_inputs_compose : forall f g, keeps_inputs f -> keeps_inputs g -> keeps_inputs (fun c => g (f c)).
Proof.
  intros f g Hf Hg c. destruct (Hf c) as [_ [F1 [F2 F3]]]. destruct (Hg (f c)) as [G0 [G1 [G2 G3]]].
  repeat split; congruence.
Qed.
Lemma merge_from_keeps_inputs : forall l, Forall (fun g : bool * (mem bool -> mem bool) => keeps_inputs (snd g)) l ->
  forall k f, keeps_inputs f -> Forall keeps_inputs (merge_from _ l k f).
Proof.
  intros l H. induction H as [|[k' g] l Hg Hl IH]; intros k f Hf; cbn [merge_from].
  - constructor; [exact Hf | constructor].
  - destruct (Bool.eqb k k'); [apply IH, keeps_inputs_compose; assumption | constructor; [exact Hf | apply IH; exact Hg]].
Qed.
Lemma merge_keeps_inputs : forall l, Forall (fun g : bool * (mem bool -> mem bool) => keeps_inputs (snd g)) l ->
  Forall keeps_inputs (merge _ l).
Proof. intros l H. destruct H as [|[k g] l Hg Hl]; [constructor | apply merge_from_keeps_inputs; assumption]. Qed.

Lemma micro_keeps_inputs : forall toff r, Forall (fun g : bool * (mem bool -> mem bool) => keeps_inputs (snd g)) (microB toff r).
Proof.
  intros toff r. unfold micro. repeat (apply Forall_app; split); repeat constructor.
  all: apply Forall_concat, Forall_map, Forall_forall; intros j _; repeat constructor.
Qed.

(* what [onlay] needs of a layout on memories of n regions: the canonical view of a written-back memory is what was written,
   as long as the regions that the steps only read (input, schedule, tweak) agree, and a later write-back overwrites an earlier one *)
Definition lay_ok (L : layout) (n : nat) : Prop :=
  (forall c m : mem bool, length m = n -> length c = 8 ->
     reg bool c 1 = reg bool m (li L) -> reg bool c 2 = reg bool m (lks L) -> reg bool c 3 = reg bool m (ltw L) ->
     perm bool L (unperm bool L c m) = c)
  /\ (forall c c' m : mem bool, length m = n -> unperm bool L c' (unperm bool L c m) = unperm bool L c' m).

Lemma unperm_length : forall L (c m : mem bool), length (unperm bool L c m) = length m.
Proof. intros L c m. unfold unperm. rewrite !set_nth_length. reflexivity. Qed.

Lemma unperm_perm : forall L (m : mem bool), unperm bool L (perm bool L m) m = m.
Proof. intros L m. unfold unperm, perm, proj, reg. cbn [map nth]. rewrite !set_nth_same. reflexivity. Qed.

(* running the steps under the layout keeps the memory of the form [unperm L c m], c the canonical memory run alone *)
Lemma onlay_fold : forall L n, lay_ok L n -> forall fs, Forall keeps_inputs fs -> forall c m : mem bool, length m = n -> length c = 8 ->
  reg bool c 1 = reg bool m (li L) -> reg bool c 2 = reg bool m (lks L) -> reg bool c 3 = reg bool m (ltw L) ->
  fold_left (fun acc g => g acc) (map (onlay bool L) fs) (unperm bool L c m) = unperm bool L (fold_left (fun acc g => g acc) fs c) m.
Proof.
  intros L n [H1 H2] fs Hfs. induction Hfs as [|f fs Hf _ IH]; intros c m Hm Hc E1 E2 E3; [reflexivity|].
  cbn [map fold_left]. unfold onlay at 2. rewrite (H1 c m Hm Hc E1 E2 E3), (H2 c (f c) m Hm).
  destruct (Hf c) as [F0 [F1 [F2 F3]]]. apply IH; congruence.
Qed.

(* both layouts: by cases on the memory, whose number of regions is given *)
Ltac fixed_length m := repeat (destruct m as [|? m]; [discriminate|]); destruct m; [|discriminate].
Ltac lay_ok_by_cases :=
  split; [intros c m Hm Hc; fixed_length m; fixed_length c; unfold reg; cbn; intros -> -> -> | intros c c' m Hm; fixed_length m];
  reflexivity.
Lemma layA_ok : lay_ok layA 7.
Proof. lay_ok_by_cases. Qed.
Lemma layB_ok : lay_ok layB 8.
Proof. lay_ok_by_cases. Qed.

Lemma msteps_fold : forall L n, lay_ok L n -> forall toff r m, length m = n ->
  fold_left (fun acc g => g acc) (msteps bool xorb andb false true L toff r) m
  = unperm bool L (fold_left ap (microB toff r) (perm bool L m)) m.
Proof.
  intros L n Hok toff r m Hm. unfold msteps. rewrite <- merge_fold. rewrite <- (unperm_perm L m) at 1.
  apply (onlay_fold L n Hok _ (merge_keeps_inputs _ (micro_keeps_inputs toff r))); (exact Hm || reflexivity).
Qed.

Definition mimage (ks : mantis_ks) (tail : list byte) : list (list bool) :=
  rgb (mk_k0 ks) ++ rgb (mk_k0p ks) ++ rgb (mk_k1 ks) ++ rgb (mk_tweak ks) ++ bits tail.
Definition mksfA : field := (2, 32, 4).      (* ks->rounds, layout A *)
Definition mksfB : field := (3, 32, 4).      (* ks->rounds, layout B *)

Lemma mimage_region : forall ks tail, length tail = 8 -> region_ok 40 (mimage ks tail).
Proof.
  intros ks tail Ht. unfold mimage. split.
  - rewrite !app_length, !rgb_len. rewrite map_length. unfold byte in *. lia.
  - repeat (apply Forall_app; split; [apply bits_len8|]). apply bits_len8.
Qed.
Lemma rd8_mimage0 : forall ks tail, rd8 bool false (mimage ks tail) 0 = mk_k0 ks.
Proof. intros. apply rd8_app0. Qed.
Lemma rd8_mimage8 : forall ks tail, rd8 bool false (mimage ks tail) 8 = mk_k0p ks.
Proof. intros. unfold mimage. change 8 with (8 + 0) at 1. rewrite rd8_skip8. apply rd8_app0. Qed.
Lemma rd8_mimage16 : forall ks tail, rd8 bool false (mimage ks tail) 16 = mk_k1 ks.
Proof. intros. unfold mimage. change 16 with (8 + (8 + 0)). rewrite !rd8_skip8. apply rd8_app0. Qed.
Lemma rd8_mimage24 : forall ks tail, rd8 bool false (mimage ks tail) 24 = mk_tweak ks.
Proof. intros. unfold mimage. change 24 with (8 + (8 + (8 + 0))). rewrite !rd8_skip8. apply rd8_app0. Qed.
Lemma stb_bits : forall blk : list byte, length blk = 8 -> stb (bits blk) = load64 blk.
Proof. intros blk H. rewrite <- (reg_of_state64_load64 blk H). apply stb_rgb. Qed.
Lemma rd8_bits0 : forall tw : list byte, length tw = 8 -> rd8 bool false (bits tw) 0 = load64 tw.
Proof.
  intros tw H. unfold rd8. cbn [skipn]. rewrite firstn_all2 by (rewrite map_length; unfold byte in *; lia). apply stb_bits. exact H.
Qed.

(* a checked MANTIS function under a layout whose canonical view of m0 is [o; i; ks; tw; ..]: the interpreter run, and the
   final memory as the canonical result written back *)
Lemma mcrypt_generic : forall L n toff sizes fld code fuel r pl sh pl' sh' c t (m0 : mem bool) o i ks tw rc T K X,
  r <= 8 -> lay_ok L n -> fields_okb [fld] = true ->
  flat [fld] fuel pl sh code = Some (pl', sh', c, t) ->
  check_block callP sizes c (msteps poly pxor pand pzero pone L toff r) (msteps bool xorb andb false true L toff r) = true ->
  shaped sizes m0 -> length m0 = n -> Inv [fld] sh m0 ->
  perm bool L m0 = [o; i; ks; tw; rc; T; K; X] ->
  exists st' T' K',
  interp [fld] callB fuel pl (m0, []) code = Some (pl', st', t)
  /\ fst st'
     = unperm bool L (let y := rgb (mantis_core bool xorb andb false true r (rd8 bool false ks 0) (rd8 bool false ks 8)
                                               (rd8 bool false ks 16) (rd8 bool false tw toff) (stb i)) in
                     [y; i; ks; tw; RCB; T'; K'; y]) m0.
Proof.
  intros L n toff sizes fld code fuel r pl sh pl' sh' c t m0 o i ks tw rc T K X Hr Hok Hfld Hflat Hcheck Hm Hlen HInv Hperm.
  destruct (micro_closed o i ks tw toff r rc T K X _ _ _ _ Hr eq_refl eq_refl eq_refl eq_refl) as (T' & K' & E).
  exists (execB callB c (m0, [])), T', K'. split.
  - exact (run_final [fld] callB code fuel pl sh pl' sh' c t Hfld Hflat m0 HInv).
  - rewrite (check_block_sound callP callB sizes c _ _ callf_spec_hom (msteps_hom sizes L toff r) Hcheck m0 Hm),
      (msteps_fold L n Hok toff r m0 Hlen), Hperm, E. reflexivity.
Qed.

Theorem mcryptA_final : forall code fuel r pl sh pl' sh' c t, r <= 8 ->
  flat [mksfA] fuel pl sh code = Some (pl', sh', c, t) ->
  check_block callP msizesA c (msteps poly pxor pand pzero pone layA 24 r) (msteps bool xorb andb false true layA 24 r) = true ->
  forall (out blk tail rcj Tj Kj Xj : list byte) (ks : mantis_ks),
  length out = 8 -> length blk = 8 -> length tail = 8 -> length rcj = 64 -> length Tj = 8 -> length Kj = 8 -> length Xj = 8 ->
  N.to_nat (mk_rounds ks) = r ->
  let m0 : mem bool := [bits out; bits blk; mimage ks tail; bits rcj; bits Tj; bits Kj; bits Xj] in
  Inv [mksfA] sh m0 ->
  exists st', interp [mksfA] callB fuel pl (m0, []) code = Some (pl', st', t)
    /\ nth 0 (fst st') [] = bits (mantis_crypt ks blk)
    /\ nth 1 (fst st') [] = bits blk /\ nth 2 (fst st') [] = mimage ks tail.
Proof.
  intros code fuel r pl sh pl' sh' c t Hr Hflat Hcheck out blk tail rcj Tj Kj Xj ks Ho Hb Ht Hrc HT HK HX Hrounds m0 HInv.
  assert (Hm : shaped msizesA m0) by (apply shapedF_shaped; repeat apply Forall2_cons; auto using Forall2_nil, bits_region, mimage_region).
  destruct (mcrypt_generic layA 7 24 msizesA mksfA code fuel r pl sh pl' sh' c t m0 (bits out) (bits blk) (mimage ks tail) (mimage ks tail)
              (bits rcj) (bits Tj) (bits Kj) (bits Xj) Hr layA_ok eq_refl Hflat Hcheck Hm eq_refl HInv eq_refl)
    as (st' & T' & K' & Hrun & E).
  exists st'. split; [exact Hrun|].
  rewrite E, rd8_mimage0, rd8_mimage8, rd8_mimage16, rd8_mimage24, stb_bits, <- Hrounds by exact Hb.
  repeat split.
Qed.

Theorem mcryptB_final : forall code fuel r pl sh pl' sh' c t, r <= 8 ->
  flat [mksfB] fuel pl sh code = Some (pl', sh', c, t) ->
  check_block callP msizesB c (msteps poly pxor pand pzero pone layB 0 r) (msteps bool xorb andb false true layB 0 r) = true ->
  forall (out blk tw tail rcj Tj Kj Xj : list byte) (ks : mantis_ks),
  length out = 8 -> length blk = 8 -> length tw = 8 -> length tail = 8 -> length rcj = 64 -> length Tj = 8 -> length Kj = 8 ->
  length Xj = 8 -> N.to_nat (mk_rounds ks) = r ->
  let m0 : mem bool := [bits out; bits blk; bits tw; mimage ks tail; bits rcj; bits Tj; bits Kj; bits Xj] in
  Inv [mksfB] sh m0 ->
  exists st', interp [mksfB] callB fuel pl (m0, []) code = Some (pl', st', t)
    /\ nth 0 (fst st') [] = bits (mantis_crypt_tweaked ks tw blk)
    /\ nth 1 (fst st') [] = bits blk /\ nth 2 (fst st') [] = bits tw /\ nth 3 (fst st') [] = mimage ks tail.
Proof.
  intros code fuel r pl sh pl' sh' c t Hr Hflat Hcheck out blk tw tail rcj Tj Kj Xj ks Ho Hb Htw Ht Hrc HT HK HX Hrounds m0 HInv.
  assert (Hm : shaped msizesB m0) by (apply shapedF_shaped; repeat apply Forall2_cons; auto using Forall2_nil, bits_region, mimage_region).
  destruct (mcrypt_generic layB 8 0 msizesB mksfB code fuel r pl sh pl' sh' c t m0 (bits out) (bits blk) (mimage ks tail) (bits tw)
              (bits rcj) (bits Tj) (bits Kj) (bits Xj) Hr layB_ok eq_refl Hflat Hcheck Hm eq_refl HInv eq_refl)
    as (st' & T' & K' & Hrun & E).
  exists st'. split; [exact Hrun|].
  rewrite E, rd8_mimage0, rd8_mimage8, rd8_mimage16, rd8_bits0, stb_bits, <- Hrounds by assumption.
  repeat split.
Qed.

Print Assumptions msteps_hom.
Print Assumptions micro_closed.
Print Assumptions mcryptA_final.
Print Assumptions mcryptB_final.
