(* IRCheck.v — what IR.v's set_nth, take_pad and store_bytes do to a list; the evaluator of IR.v commutes with any homomorphism of bit carriers, in particular with the
   evaluation of GF(2) polynomials (Anf.v) under an assignment; the reflective kernel checker [check_kernel] and
   its soundness; chaining of checked segments, with the syntactic conditions [locals_closed] (a segment reads no
   local it has not assigned) and [stores_in_bounds]; the check [wf_prog] (every load and store inside its region,
   every expression has a width) that the generated files evaluate on each translated program; a two-statement
   program put through all of it (Module Toy). *)
From Coq Require Import List Bool NArith Arith Lia.
From Skinny Require Import ListFacts IR Anf.
Import ListNotations.

Lemma set_nth_map : forall {A A' : Type} (g : A -> A') i x l,
  map g (set_nth i x l) = set_nth i (g x) (map g l).
Proof.
  intros A A' g i x l. revert i. induction l as [|y l IH]; intros i; [destruct i; reflexivity|].
  destruct i as [|i]; simpl; [reflexivity | rewrite IH; reflexivity].
Qed.

Lemma set_nth_length : forall {A : Type} i (x : A) l, length (set_nth i x l) = length l.
Proof.
  intros A i x l. revert i. induction l as [|y l IH]; intros i; [destruct i; reflexivity|].
  destruct i as [|i]; simpl; [reflexivity | rewrite IH; reflexivity].
Qed.

Lemma Forall_set_nth : forall {A : Type} (P : A -> Prop) i x l,
  P x -> Forall P l -> Forall P (set_nth i x l).
Proof.
  intros A P i x l Hx Hl. revert i. induction Hl as [|y l Hy Hl IH]; intros i; [destruct i; constructor|].
  destruct i as [|i]; simpl; constructor; auto.
Qed.

Lemma nth_set_nth : forall {A : Type} i (x : A) l j d,
  nth j (set_nth i x l) d = if (Nat.eqb j i && Nat.ltb i (length l))%bool then x else nth j l d.
Proof.
  intros A i x l. revert i. induction l as [|y l IH]; intros i j d.
  - destruct i; simpl; rewrite andb_false_r; reflexivity.
  - destruct i as [|i]; destruct j as [|j]; simpl; try reflexivity.
    rewrite IH. reflexivity.
Qed.
Lemma set_nth_comm : forall {A} i j (x y : A) l, i <> j ->
  set_nth i x (set_nth j y l) = set_nth j y (set_nth i x l).
Proof.
  intros A i j x y l. revert i j. induction l as [|z l IH]; intros i j H; [destruct i, j; reflexivity|].
  destruct i as [|i], j as [|j]; cbn [set_nth]; try reflexivity; [lia|].
  f_equal. apply IH. lia.
Qed.
Lemma set_nth_set_nth : forall {A} i (x y : A) l, set_nth i x (set_nth i y l) = set_nth i x l.
Proof.
  intros A i x y l. revert i. induction l as [|z l IH]; intros i; [destruct i; reflexivity|].
  destruct i as [|i]; cbn [set_nth]; [reflexivity | f_equal; apply IH].
Qed.
Lemma nth_set_nth_ne : forall {A} i j (x : A) l d, i <> j -> nth j (set_nth i x l) d = nth j l d.
Proof.
  intros A i j x l d H. rewrite nth_set_nth. destruct (Nat.eqb_spec j i); [lia | reflexivity].
Qed.
Lemma nth_set_nth_eq : forall {A} i (x : A) l d, i < length l -> nth i (set_nth i x l) d = x.
Proof.
  intros A i x l d H. rewrite nth_set_nth, Nat.eqb_refl, (proj2 (Nat.ltb_lt _ _) H). reflexivity.
Qed.
Lemma set_nth_same : forall {A} i (l : list A) d, set_nth i (nth i l d) l = l.
Proof.
  intros A i l d. revert i. induction l as [|z l IH]; intros i; [destruct i; reflexivity|].
  destruct i as [|i]; cbn [set_nth nth]; [reflexivity | f_equal; apply IH].
Qed.
Lemma set_nth_app_r : forall {A} (l r : list A) n x, set_nth (length l + n) x (l ++ r) = l ++ set_nth n x r.
Proof. intros A l. induction l as [|y l IH]; intros r n x; [reflexivity|]. cbn [length plus app set_nth]. rewrite IH. reflexivity. Qed.
Lemma set_nth_app_l : forall {A} (l r : list A) i x, i < length l -> set_nth i x (l ++ r) = set_nth i x l ++ r.
Proof.
  intros A l. induction l as [|y l IH]; intros r i x H; [cbn in H; lia|].
  destruct i as [|i]; [reflexivity|]. cbn [app set_nth]. rewrite IH by (cbn in H; lia). reflexivity.
Qed.
Lemma set_nth_map_seq : forall {A} (F : nat -> A) v n i a,
  set_nth i v (map F (seq a n)) = map (fun p => if p =? a + i then v else F p) (seq a n).
Proof.
  intros A F v n. induction n as [|n IH]; intros i a; [destruct i; reflexivity|].
  destruct i as [|i]; cbn [seq map set_nth].
  - rewrite Nat.add_0_r, Nat.eqb_refl. f_equal. apply map_ext_in. intros p Hp. apply in_seq in Hp.
    destruct (Nat.eqb_spec p a); [lia | reflexivity].
  - destruct (Nat.eqb_spec a (a + S i)); [lia|]. rewrite IH, <- plus_n_Sm. reflexivity.
Qed.
Lemma store_bytes_at : forall (new a x r : list (list bool)) off, length a = off -> length x = length new ->
  store_bytes bool off new (a ++ x ++ r) = a ++ new ++ r.
Proof.
  induction new as [|b new IH]; intros a [|y x] r off <- Hx; try discriminate; [reflexivity|].
  pose proof (set_nth_app_r a (y :: x ++ r) 0 b) as E. rewrite Nat.add_0_r in E. cbn [store_bytes app]. rewrite E. cbn [set_nth].
  change (a ++ b :: x ++ r) with (a ++ [b] ++ x ++ r). rewrite app_assoc, IH, <- app_assoc; [reflexivity | | injection Hx; auto].
  rewrite app_length. cbn [length]. lia.
Qed.

Lemma take_pad_length : forall {B : Type} n (p : B) l, length (take_pad B n p l) = n.
Proof.
  intros B n p. induction n as [|n IH]; intros l; [reflexivity|].
  destruct l; simpl; rewrite IH; reflexivity.
Qed.
Lemma take_pad_id : forall {B : Type} (p : B) l n, length l = n -> take_pad B n p l = l.
Proof. intros B p l n <-. induction l as [|x l IH]; [reflexivity|]. cbn [length take_pad]. rewrite IH. reflexivity. Qed.

Lemma lanes_cons : forall {B : Type} f lw (x : B) l,
  lanes B (S f) lw (x :: l) = firstn lw (x :: l) :: lanes B f lw (skipn lw (x :: l)).
Proof. reflexivity. Qed.

(* the induction principle with a hypothesis for the subexpressions of [EConcat], which lie in a list *)
Lemma expr_ind2 (P : expr -> Prop)
  (HConst : forall w v, P (EConst w v))
  (HLocal : forall x, P (ELocal x))
  (HLoad : forall r off n, P (ELoad r off n))
  (HNot : forall a, P a -> P (ENot a))
  (HBin : forall o a b, P a -> P b -> P (EBin o a b))
  (HShl : forall lw a k, P a -> P (EShl lw a k))
  (HShrL : forall lw a k, P a -> P (EShrL lw a k))
  (HShrA : forall lw a k, P a -> P (EShrA lw a k))
  (HSlice : forall a lo w, P a -> P (ESlice a lo w))
  (HConcat : forall l, Forall P l -> P (EConcat l))
  (HZext : forall w a, P a -> P (EZext w a))
  (HSext : forall w a, P a -> P (ESext w a))
  (HCall : forall f a, P a -> P (ECall f a))
  (HAdd : forall a b, P a -> P b -> P (EAdd a b)) : forall e, P e.
Proof.
  fix IH 1. intros e. destruct e.
  - apply HConst.
  - apply HLocal.
  - apply HLoad.
  - apply HNot, IH.
  - apply HBin; apply IH.
  - apply HShl, IH.
  - apply HShrL, IH.
  - apply HShrA, IH.
  - apply HSlice, IH.
  - apply HConcat. induction l as [|a l IHl]; constructor; [apply IH | exact IHl].
  - apply HZext, IH.
  - apply HSext, IH.
  - apply HCall, IH.
  - apply HAdd; apply IH.
Qed.

(* Every function of IR.v commutes with a homomorphism h of bit carriers (the [_hom] lemmas of this section);
   [eval_hom], [exec_hom] after it are [eval_hom_gen], [exec_hom_gen] at h = peval rho. *)
Section Hom.
  Variables B1 B2 : Type.
  Variables (bx1 ba1 : B1 -> B1 -> B1) (z1 o1 : B1).
  Variables (bx2 ba2 : B2 -> B2 -> B2) (z2 o2 : B2).
  Variable h : B1 -> B2.
  Hypothesis h_bx : forall a b, h (bx1 a b) = bx2 (h a) (h b).
  Hypothesis h_ba : forall a b, h (ba1 a b) = ba2 (h a) (h b).
  Hypothesis h_z : h z1 = z2.
  Hypothesis h_o : h o1 = o2.
  Variable c1 : nat -> list B1 -> list B1.
  Variable c2 : nat -> list B2 -> list B2.
  Hypothesis h_call : forall f l, map h (c1 f l) = c2 f (map h l).

  Notation hm := (map (map (map h))).
  Definition hst (st : mem B1 * list (list B1)) : mem B2 * list (list B2) :=
    (hm (fst st), map (map h) (snd st)).

  Lemma map2_hom : forall f1 f2, (forall x y, h (f1 x y) = f2 (h x) (h y)) ->
    forall a b, map h (map2 B1 f1 a b) = map2 B2 f2 (map h a) (map h b).
  Proof.
    intros f1 f2 Hf a. induction a as [|x a IH]; intros b; [reflexivity|].
    destruct b as [|y b]; [reflexivity|]. simpl. rewrite Hf, IH. reflexivity.
  Qed.

  Lemma add_bits_hom : forall a b c, map h (add_bits B1 bx1 ba1 c a b) = add_bits B2 bx2 ba2 (h c) (map h a) (map h b).
  Proof.
    intros a. induction a as [|x a IH]; intros b c; [reflexivity|].
    destruct b as [|y b]; [reflexivity|]. cbn [add_bits map]. rewrite IH, !h_bx, !h_ba, !h_bx. reflexivity.
  Qed.

  Lemma zeros_hom : forall n, map h (zeros_ B1 z1 n) = zeros_ B2 z2 n.
  Proof. intros n. unfold zeros_. rewrite map_repeat', h_z. reflexivity. Qed.

  Lemma take_pad_hom : forall n p l, map h (take_pad B1 n p l) = take_pad B2 n (h p) (map h l).
  Proof.
    intros n p. induction n as [|n IH]; intros l; [reflexivity|].
    destruct l as [|x l]; simpl; rewrite IH; reflexivity.
  Qed.

  Lemma const_bits_hom : forall w v, map h (const_bits B1 z1 o1 w v) = const_bits B2 z2 o2 w v.
  Proof.
    intros w v. unfold const_bits. rewrite map_map. apply map_ext. intros i.
    destruct (N.testbit v (N.of_nat i)); assumption.
  Qed.

  Lemma lanes_hom : forall fuel lw l, map (map h) (lanes B1 fuel lw l) = lanes B2 fuel lw (map h l).
  Proof.
    intros fuel lw. induction fuel as [|f IH]; intros l; [reflexivity|].
    destruct l as [|x l]; [reflexivity|].
    cbn [map]. rewrite !lanes_cons. cbn [map]. rewrite IH, <- firstn_map, <- skipn_map. reflexivity.
  Qed.

  Lemma on_lanes_hom : forall lw f1 f2, (forall l, map h (f1 l) = f2 (map h l)) ->
    forall l, map h (on_lanes B1 lw f1 l) = on_lanes B2 lw f2 (map h l).
  Proof.
    intros lw f1 f2 Hf l. unfold on_lanes. destruct (Nat.eqb lw 0); [reflexivity|].
    rewrite concat_map, map_map, map_length, <- lanes_hom, map_map.
    f_equal. apply map_ext. intros x. apply Hf.
  Qed.

  Lemma shl1_hom : forall k l, map h (shl1 B1 z1 k l) = shl1 B2 z2 k (map h l).
  Proof.
    intros k l. unfold shl1. rewrite <- firstn_map, map_app, zeros_hom, map_length. reflexivity.
  Qed.

  Lemma shrl1_hom : forall k l, map h (shrl1 B1 z1 k l) = shrl1 B2 z2 k (map h l).
  Proof.
    intros k l. unfold shrl1. rewrite take_pad_hom, <- skipn_map, map_length, h_z. reflexivity.
  Qed.

  Lemma shra1_hom : forall k l, map h (shra1 B1 z1 k l) = shra1 B2 z2 k (map h l).
  Proof.
    intros k l. unfold shra1.
    rewrite take_pad_hom, <- skipn_map, map_length, <- last_map', h_z. reflexivity.
  Qed.

  Lemma nth_hm : forall r m, nth r (hm m) [] = map (map h) (nth r m []).
  Proof.
    intros r m. exact (map_nth (map (map h)) m [] r).
  Qed.

  Lemma load_hom : forall m r off n, map h (load B1 z1 m r off n) = load B2 z2 (hm m) r off n.
  Proof.
    intros m r off n. unfold load. rewrite concat_map, map_map.
    f_equal. apply map_ext. intros i.
    rewrite take_pad_hom, h_z. f_equal.
    rewrite nth_hm.
    replace (byte0_ B2 z2) with (map h (byte0_ B1 z1)) by apply zeros_hom.
    symmetry. apply map_nth.
  Qed.

  Lemma bytes_of_hom : forall n l, map (map h) (bytes_of B1 z1 n l) = bytes_of B2 z2 n (map h l).
  Proof.
    intros n. induction n as [|n IH]; intros l; [reflexivity|].
    cbn [bytes_of map]. rewrite take_pad_hom, h_z, IH, firstn_map, skipn_map. reflexivity.
  Qed.

  Lemma store_bytes_hom : forall bs off reg,
    map (map h) (store_bytes B1 off bs reg) = store_bytes B2 off (map (map h) bs) (map (map h) reg).
  Proof.
    intros bs. induction bs as [|b bs IH]; intros off reg; [reflexivity|].
    simpl. rewrite IH, set_nth_map. reflexivity.
  Qed.

  Lemma store_hom : forall m r off n v,
    hm (store B1 z1 m r off n v) = store B2 z2 (hm m) r off n (map h v).
  Proof.
    intros m r off n v. unfold store.
    rewrite nth_hm, <- bytes_of_hom, <- store_bytes_hom. apply set_nth_map.
  Qed.

  Lemma bnot_hom : forall a, h (bnot_ B1 bx1 o1 a) = bnot_ B2 bx2 o2 (h a).
  Proof. intros a. unfold bnot_. rewrite h_bx, h_o. reflexivity. Qed.
  Lemma bor_hom : forall a b, h (bor_ B1 bx1 ba1 a b) = bor_ B2 bx2 ba2 (h a) (h b).
  Proof. intros a b. unfold bor_. rewrite !h_bx, h_ba. reflexivity. Qed.

  Lemma nth_loc_hom : forall x (loc : list (list B1)), nth x (map (map h) loc) [] = map h (nth x loc []).
  Proof.
    intros x loc. exact (map_nth (map h) loc [] x).
  Qed.

  Theorem eval_hom_gen : forall m loc e,
    map h (eval B1 bx1 ba1 z1 o1 c1 m loc e) =
    eval B2 bx2 ba2 z2 o2 c2 (hm m) (map (map h) loc) e.
  Proof.
    intros m loc e. induction e using expr_ind2; cbn [eval].
    - apply const_bits_hom.
    - symmetry. apply nth_loc_hom.
    - apply load_hom.
    - rewrite <- IHe, !map_map. apply map_ext. apply bnot_hom.
    - rewrite <- IHe1, <- IHe2. apply map2_hom.
      destruct o; [apply h_ba | apply bor_hom | apply h_bx].
    - rewrite <- IHe. apply on_lanes_hom, shl1_hom.
    - rewrite <- IHe. apply on_lanes_hom, shrl1_hom.
    - rewrite <- IHe. apply on_lanes_hom, shra1_hom.
    - rewrite <- IHe, take_pad_hom, h_z, skipn_map. reflexivity.
    - rewrite concat_map, map_map. f_equal. apply map_ext_in, Forall_forall, H.
    - rewrite <- IHe, take_pad_hom, h_z. reflexivity.
    - rewrite <- IHe, take_pad_hom, <- last_map', h_z. reflexivity.
    - rewrite <- IHe. apply h_call.
    - rewrite <- IHe1, <- IHe2, <- h_z. apply add_bits_hom.
  Qed.

  Lemma exec1_hom : forall st s,
    exec1 B2 bx2 ba2 z2 o2 c2 (hst st) s = hst (exec1 B1 bx1 ba1 z1 o1 c1 st s).
  Proof.
    intros [m loc] s. unfold hst. cbn [fst snd]. destruct s as [x e | r off n e]; cbn [exec1 fst snd].
    - rewrite <- eval_hom_gen, map_length. f_equal.
      destruct (Nat.ltb x (length loc)).
      + rewrite set_nth_map. reflexivity.
      + rewrite !map_app, map_repeat'. reflexivity.
    - rewrite <- eval_hom_gen, store_hom. reflexivity.
  Qed.

  Theorem exec_hom_gen : forall p st,
    exec B2 bx2 ba2 z2 o2 c2 p (hst st) = hst (exec B1 bx1 ba1 z1 o1 c1 p st).
  Proof.
    intros p. induction p as [|s p IH]; intros st; [reflexivity|].
    unfold exec in *. cbn [fold_left]. rewrite exec1_hom. apply IH.
  Qed.
End Hom.

Definition evalP := eval poly pxor pand pzero pone.
Definition execP := exec poly pxor pand pzero pone.
Definition evalB := eval bool xorb andb false true.
Definition execB := exec bool xorb andb false true.
Definition vmap (rho : assignment) (l : list poly) : list bool := map (peval rho) l.
Definition mmap (rho : assignment) (m : mem poly) : mem bool := map (map (vmap rho)) m.

Definition call_hom (cP : nat -> list poly -> list poly) (cB : nat -> list bool -> list bool) : Prop :=
  forall rho f l, vmap rho (cP f l) = cB f (vmap rho l).

Theorem eval_hom : forall cP cB rho, call_hom cP cB -> forall e m loc,
  vmap rho (evalP cP m loc e) = evalB cB (mmap rho m) (map (vmap rho) loc) e.
Proof.
  intros cP cB rho Hc e m loc. unfold vmap, evalP, evalB, mmap.
  apply (eval_hom_gen poly bool pxor pand pzero pone xorb andb false true (peval rho)
           (peval_pxor rho) (peval_pand rho) (peval_pzero rho) (peval_pone rho) cP cB (Hc rho)).
Qed.

Lemma exec_hom_pair : forall cP cB rho, call_hom cP cB -> forall p m loc,
  execB cB p (mmap rho m, map (vmap rho) loc) =
  (mmap rho (fst (execP cP p (m, loc))), map (vmap rho) (snd (execP cP p (m, loc)))).
Proof.
  intros cP cB rho Hc p m loc.
  apply (exec_hom_gen poly bool pxor pand pzero pone xorb andb false true (peval rho)
           (peval_pxor rho) (peval_pand rho) (peval_pzero rho) (peval_pone rho) cP cB (Hc rho) p (m, loc)).
Qed.

Theorem exec_hom : forall cP cB rho, call_hom cP cB -> forall p m loc,
  let '(m', loc') := execP cP p (m, loc) in
  execB cB p (mmap rho m, map (vmap rho) loc) = (mmap rho m', map (vmap rho) loc').
Proof.
  intros cP cB rho Hc p m loc.
  pose proof (exec_hom_pair cP cB rho Hc p m loc) as H.
  destruct (execP cP p (m, loc)) as [m' loc']. exact H.
Qed.

Lemma nth_mmap : forall rho r m, nth r (mmap rho m) [] = map (vmap rho) (nth r m []).
Proof. intros rho r m. unfold mmap. exact (map_nth (map (vmap rho)) m [] r). Qed.

Definition shaped (sizes : list nat) {B} (m : mem B) : Prop :=
  length m = length sizes /\
  forall r, r < length sizes ->
    length (nth r m []) = nth r sizes 0 /\ Forall (fun b => length b = 8) (nth r m []).

(* [shaped] reads the memory by index, the form the statements about programs use; [shapedF] says the same region
   by region, the form for inductions and for [repeat constructor] on a memory written out as a list. *)
Definition region_ok {B} (n : nat) (reg : list (list B)) : Prop :=
  length reg = n /\ Forall (fun b => length b = 8) reg.
Definition shapedF (sizes : list nat) {B} (m : mem B) : Prop := Forall2 region_ok sizes m.

Lemma shaped_shapedF : forall sizes {B} (m : mem B), shaped sizes m -> shapedF sizes m.
Proof.
  intros sizes B. induction sizes as [|n s IH]; intros [|reg m] [Hl Hr]; try discriminate Hl; constructor.
  - apply (Hr 0). cbn [length]. lia.
  - apply IH. split; [cbn [length] in Hl; lia | intros r Hlt; apply (Hr (S r)); cbn [length]; lia].
Qed.

Lemma shapedF_shaped : forall sizes {B} (m : mem B), shapedF sizes m -> shaped sizes m.
Proof.
  intros sizes B m H. induction H as [|n reg s m Hreg _ [IHl IHr]].
  - split; [reflexivity | intros r Hr; inversion Hr].
  - split; [cbn [length]; rewrite IHl; reflexivity|].
    intros [|r] Hr; [exact Hreg | apply IHr; cbn [length] in Hr; lia].
Qed.

Lemma mmap_shaped : forall rho sizes (m : mem poly), shaped sizes m -> shaped sizes (mmap rho m).
Proof.
  intros rho sizes m [Hl Hr]. split; [unfold mmap; rewrite map_length; exact Hl|].
  intros r Hlt. destruct (Hr r Hlt) as [H1 H2]. rewrite nth_mmap, map_length. split; [exact H1|].
  apply Forall_map. apply (Forall_impl _ (P := fun b => length b = 8)); [|exact H2].
  intros b Hb. unfold vmap. rewrite map_length. exact Hb.
Qed.

Definition fresh_byte (k : nat) : list poly := map pvar (seq k 8).
Fixpoint fresh_region (k n : nat) : list (list poly) :=
  match n with
  | O => []
  | S n' => fresh_byte k :: fresh_region (k + 8) n'
  end.
Fixpoint fresh_from (k : nat) (sizes : list nat) : mem poly :=
  match sizes with
  | [] => []
  | n :: s => fresh_region k n :: fresh_from (k + 8 * n) s
  end.
Definition fresh_mem (sizes : list nat) : mem poly := fresh_from 0 sizes.

(* variable v is the v-th bit of the flattened memory, whatever the region sizes *)
Definition assign_of (sizes : list nat) (m : mem bool) : assignment :=
  fun v => nth v (concat (concat m)) false.

Lemma fresh_region_ok : forall n k, region_ok n (fresh_region k n).
Proof.
  induction n as [|n IH]; intros k.
  - split; [reflexivity | constructor].
  - destruct (IH (k + 8)) as [Hl Hf]. split.
    + simpl. rewrite Hl. reflexivity.
    + constructor; [reflexivity | exact Hf].
Qed.

Lemma fresh_from_shapedF : forall sizes k, shapedF sizes (fresh_from k sizes).
Proof.
  induction sizes as [|n s IH]; intros k; [constructor|].
  constructor; [apply fresh_region_ok | apply IH].
Qed.

Lemma fresh_mem_shaped : forall sizes, shaped sizes (fresh_mem sizes).
Proof. intros. apply shapedF_shaped, fresh_from_shapedF. Qed.

(* [l] is what the assignment [rho] holds from variable [k] on.  The fresh memory numbers its variables in
   the order of the flattened memory, so byte by byte and region by region an initial piece of [l] is
   consumed and the rest is read from where that piece ended. *)
Definition reads (rho : assignment) (k : nat) (l : list bool) : Prop := forall j, rho (k + j) = nth j l false.

Lemma reads_app : forall rho a l k, reads rho k (a ++ l) ->
  map rho (seq k (length a)) = a /\ reads rho (k + length a) l.
Proof.
  intros rho a l. induction a as [|x a IH]; intros k H.
  - rewrite Nat.add_0_r. split; [reflexivity | exact H].
  - destruct (IH (S k)) as [E R]; [intros j; rewrite Nat.add_succ_comm; exact (H (S j))|].
    cbn [length seq map]. rewrite Nat.add_succ_r, E. split; [|exact R].
    specialize (H 0). rewrite Nat.add_0_r in H. rewrite H. reflexivity.
Qed.

Lemma fresh_byte_assign : forall rho k b l, length b = 8 -> reads rho k (b ++ l) ->
  vmap rho (fresh_byte k) = b /\ reads rho (k + 8) l.
Proof.
  intros rho k b l Hl H. destruct (reads_app rho b l k H) as [E R]. rewrite Hl in E, R. split; [|exact R].
  unfold vmap, fresh_byte. rewrite map_map, <- E. apply map_ext, peval_pvar.
Qed.

Lemma fresh_region_assign : forall rho reg l k, Forall (fun b => length b = 8) reg ->
  reads rho k (concat reg ++ l) ->
  map (vmap rho) (fresh_region k (length reg)) = reg /\ reads rho (k + 8 * length reg) l.
Proof.
  intros rho reg l. induction reg as [|b reg IH]; intros k Hf H.
  - rewrite Nat.add_0_r. split; [reflexivity | exact H].
  - inversion Hf as [|b' reg' Hb Hreg]; subst. cbn [concat] in H. rewrite <- app_assoc in H.
    destruct (fresh_byte_assign rho k b _ Hb H) as [E R]. destruct (IH (k + 8) Hreg R) as [E' R'].
    cbn [length fresh_region map]. rewrite E, E'. split; [reflexivity|].
    rewrite Nat.mul_succ_r, (Nat.add_comm _ 8), Nat.add_assoc. exact R'.
Qed.

Lemma fresh_from_assign : forall rho sizes (m : mem bool), shapedF sizes m ->
  forall k, reads rho k (concat (concat m)) -> mmap rho (fresh_from k sizes) = m.
Proof.
  intros rho sizes m Hs. induction Hs as [|n reg s m [Hl Hf] _ IH]; intros k H; [reflexivity|].
  subst n. cbn [concat] in H. rewrite concat_app in H.
  destruct (fresh_region_assign rho reg _ k Hf H) as [E R].
  cbn [fresh_from]. unfold mmap in *. cbn [map]. rewrite E, (IH _ R). reflexivity.
Qed.

Lemma fresh_mem_assign : forall sizes m, shaped sizes m ->
  mmap (assign_of sizes m) (fresh_mem sizes) = m.
Proof.
  intros sizes m Hs. apply fresh_from_assign.
  - apply shaped_shapedF, Hs.
  - intros v. reflexivity.
Qed.

Definition mem_eqb : mem poly -> mem poly -> bool := list_eqb (list_eqb (list_eqb poly_eqb)).
Lemma mem_eqb_eq : forall a b, mem_eqb a b = true -> a = b.
Proof.
  apply list_eqb_eq. apply list_eqb_eq. apply list_eqb_eq. apply poly_eqb_eq.
Qed.
Lemma mem_eqb_refl : forall a, mem_eqb a a = true.
Proof.
  apply list_eqb_refl. apply list_eqb_refl. apply list_eqb_refl. apply poly_eqb_refl.
Qed.

Definition check_kernel (cP : nat -> list poly -> list poly) (sizes : list nat) (p : list stmt)
                        (specP : mem poly -> mem poly) : bool :=
  mem_eqb (fst (execP cP p (fresh_mem sizes, []))) (specP (fresh_mem sizes)).

Definition spec_hom (sizes : list nat) (sP : mem poly -> mem poly) (sB : mem bool -> mem bool) : Prop :=
  forall rho m, shaped sizes m -> mmap rho (sP m) = sB (mmap rho m).

(* the run on a shaped memory m is the symbolic run on the fresh memory, read at the assignment that holds m *)
Lemma execB_fresh : forall cP cB sizes p (m : mem bool), call_hom cP cB -> shaped sizes m ->
  fst (execB cB p (m, [])) = mmap (assign_of sizes m) (fst (execP cP p (fresh_mem sizes, []))).
Proof.
  intros cP cB sizes p m Hc Hm.
  pose proof (exec_hom_pair cP cB (assign_of sizes m) Hc p (fresh_mem sizes) []) as He.
  rewrite fresh_mem_assign in He by exact Hm. cbn [map] in He. rewrite He. reflexivity.
Qed.

Theorem check_kernel_sound : forall cP cB sizes p sP sB,
  call_hom cP cB -> spec_hom sizes sP sB -> check_kernel cP sizes p sP = true ->
  forall m : mem bool, shaped sizes m -> fst (execB cB p (m, [])) = sB m.
Proof.
  intros cP cB sizes p sP sB Hc Hs Hk m Hm. unfold check_kernel in Hk. apply mem_eqb_eq in Hk.
  rewrite (execB_fresh cP cB sizes p m Hc Hm), Hk, Hs by apply fresh_mem_shaped.
  rewrite fresh_mem_assign by exact Hm. reflexivity.
Qed.

Definition mem_nat (x : nat) (l : list nat) : bool := existsb (Nat.eqb x) l.

Fixpoint expr_closed (asg : list nat) (e : expr) : bool :=
  match e with
  | EConst _ _ => true
  | ELocal x => mem_nat x asg
  | ELoad _ _ _ => true
  | ENot a => expr_closed asg a
  | EBin _ a b => expr_closed asg a && expr_closed asg b
  | EShl _ a _ => expr_closed asg a
  | EShrL _ a _ => expr_closed asg a
  | EShrA _ a _ => expr_closed asg a
  | ESlice a _ _ => expr_closed asg a
  | EConcat l => forallb (expr_closed asg) l
  | EZext _ a => expr_closed asg a
  | ESext _ a => expr_closed asg a
  | ECall _ a => expr_closed asg a
  | EAdd a b => expr_closed asg a && expr_closed asg b
  end.

Fixpoint locals_closed_from (asg : list nat) (p : list stmt) : bool :=
  match p with
  | [] => true
  | SLocal x e :: p' => expr_closed asg e && locals_closed_from (x :: asg) p'
  | SStore _ _ _ e :: p' => expr_closed asg e && locals_closed_from asg p'
  end.
Definition locals_closed (p : list stmt) : bool := locals_closed_from [] p.

Lemma mem_nat_In : forall x l, mem_nat x l = true -> In x l.
Proof.
  intros x l [y [Hy ->%Nat.eqb_eq]]%existsb_exists. exact Hy.
Qed.

(* the local environment after [x := v], as in the SLocal branch of IR.exec1 *)
Definition upd_local {B} (x : nat) (v : list B) (loc : list (list B)) : list (list B) :=
  if Nat.ltb x (length loc) then set_nth x v loc else loc ++ repeat [] (x - length loc) ++ [v].

Lemma nth_upd_local : forall {B} x (v : list B) loc y,
  nth y (upd_local x v loc) [] = if Nat.eqb y x then v else nth y loc [].
Proof.
  intros B x v loc y. unfold upd_local.
  destruct (Nat.ltb x (length loc)) eqn:Hx.
  - rewrite nth_set_nth, Hx, andb_true_r. reflexivity.
  - (* loc, then x - length loc empty vectors, then v at index x *)
    apply Nat.ltb_ge in Hx. destruct (Nat.eqb_spec y x) as [->|Hy].
    + rewrite !app_nth2, repeat_length, Nat.sub_diag by (rewrite ?repeat_length; lia). reflexivity.
    + destruct (Nat.lt_ge_cases y (length loc)) as [Hlt|Hge]; [apply app_nth1, Hlt|].
      rewrite app_nth2, (nth_overflow loc) by lia.
      destruct (Nat.lt_ge_cases (y - length loc) (x - length loc)) as [Hlt2|Hge2].
      * rewrite app_nth1 by (rewrite repeat_length; exact Hlt2). apply nth_repeat.
      * apply nth_overflow. rewrite app_length, repeat_length. simpl. lia.
Qed.

Section Closed.
  Variable B : Type.
  Variables (bx ba : B -> B -> B) (b0 b1 : B).
  Variable callf : nat -> list B -> list B.

  Definition agree_on (asg : list nat) (l1 l2 : list (list B)) : Prop :=
    forall x, In x asg -> nth x l1 [] = nth x l2 [].

  Lemma eval_agree : forall asg m l1 l2 e, agree_on asg l1 l2 -> expr_closed asg e = true ->
    eval B bx ba b0 b1 callf m l1 e = eval B bx ba b0 b1 callf m l2 e.
  Proof.
    intros asg m l1 l2 e Ha. induction e using expr_ind2; cbn [eval expr_closed]; intros Hc;
      try reflexivity; (* no subexpression, no local *)
      try (rewrite IHe by exact Hc; reflexivity); (* one subexpression *)
      try (apply andb_true_iff in Hc as [H1 H2]; rewrite IHe1, IHe2 by assumption; reflexivity). (* two *)
    - apply Ha, mem_nat_In, Hc.
    - f_equal. apply map_ext_in. intros a Hin.
      rewrite Forall_forall in H. rewrite forallb_forall in Hc. apply (H a Hin (Hc a Hin)).
  Qed.

  Lemma agree_upd : forall asg x v l1 l2, agree_on asg l1 l2 ->
    agree_on (x :: asg) (upd_local x v l1) (upd_local x v l2).
  Proof.
    intros asg x v l1 l2 Ha y Hy. rewrite !nth_upd_local. destruct (Nat.eqb_spec y x) as [|N]; [reflexivity|].
    destruct Hy as [<-|Hy]; [contradiction N; reflexivity | apply Ha, Hy].
  Qed.

  Lemma exec_agree : forall p asg m l1 l2, agree_on asg l1 l2 -> locals_closed_from asg p = true ->
    fst (exec B bx ba b0 b1 callf p (m, l1)) = fst (exec B bx ba b0 b1 callf p (m, l2)).
  Proof.
    intros p. induction p as [|s p IH]; intros asg m l1 l2 Ha Hc; [reflexivity|].
    unfold exec in *. cbn [fold_left]. destruct s as [x e | r off n e]; cbn [locals_closed_from] in Hc;
      apply andb_true_iff in Hc; destruct Hc as [He Hp]; cbn [exec1]; rewrite (eval_agree asg m l1 l2 e Ha He).
    - apply (IH (x :: asg)); [apply agree_upd, Ha | exact Hp].
    - apply (IH asg); assumption.
  Qed.
End Closed.

Theorem locals_closed_sound : forall {B} bx ba b0 b1 callf p m loc, locals_closed p = true ->
  fst (exec B bx ba b0 b1 callf p (m, loc)) = fst (exec B bx ba b0 b1 callf p (m, [])).
Proof.
  intros B bx ba b0 b1 callf p m loc H.
  apply (exec_agree B bx ba b0 b1 callf p [] m loc []); [|exact H].
  intros x [].
Qed.

Fixpoint stores_in_bounds (sizes : list nat) (p : list stmt) : bool :=
  match p with
  | [] => true
  | SLocal _ _ :: p' => stores_in_bounds sizes p'
  | SStore r off n _ :: p' =>
      Nat.ltb r (length sizes) && Nat.leb (off + n) (nth r sizes 0) && stores_in_bounds sizes p'
  end.

Lemma store_bytes_length : forall {B} bs off (reg : list (list B)),
  length (store_bytes B off bs reg) = length reg.
Proof.
  intros B bs. induction bs as [|b bs IH]; intros off reg; [reflexivity|].
  simpl. rewrite IH. apply set_nth_length.
Qed.

Lemma store_bytes_len8 : forall {B} bs off (reg : list (list B)),
  Forall (fun b => length b = 8) bs -> Forall (fun b => length b = 8) reg ->
  Forall (fun b => length b = 8) (store_bytes B off bs reg).
Proof.
  intros B bs. induction bs as [|b bs IH]; intros off reg Hbs Hreg; [exact Hreg|].
  inversion Hbs; subst. simpl. apply IH; [assumption|].
  apply Forall_set_nth; assumption.
Qed.

Lemma bytes_of_len8 : forall {B} (z : B) n l, Forall (fun b => length b = 8) (bytes_of B z n l).
Proof.
  intros B z n. induction n as [|n IH]; intros l; [constructor|].
  cbn [bytes_of]. constructor; [apply take_pad_length | apply IH].
Qed.

(* stores never change the shape (even out-of-bounds ones, which [set_nth] ignores) *)
Lemma store_shaped : forall {B} (z : B) sizes m r off n v,
  shaped sizes m -> shaped sizes (store B z m r off n v).
Proof.
  intros B z sizes m r off n v [Hl Hr]. unfold store. split; [rewrite set_nth_length; exact Hl|].
  intros r' Hr'. rewrite nth_set_nth.
  destruct (Nat.eqb r' r && Nat.ltb r (length m))%bool eqn:E; [|apply Hr, Hr'].
  apply andb_true_iff in E as [->%Nat.eqb_eq _]. destruct (Hr r Hr') as [H1 H2]. split.
  - rewrite store_bytes_length. exact H1.
  - apply store_bytes_len8; [apply bytes_of_len8 | exact H2].
Qed.

Theorem exec_shaped_gen : forall {B} bx ba b0 b1 callf sizes p (m : mem B) loc,
  shaped sizes m -> shaped sizes (fst (exec B bx ba b0 b1 callf p (m, loc))).
Proof.
  intros B bx ba b0 b1 callf sizes p. induction p as [|s p IH]; intros m loc H; [exact H|].
  unfold exec in *. cbn [fold_left]. destruct s as [x e | r off n e]; cbn [exec1].
  - apply IH, H.
  - apply IH, store_shaped, H.
Qed.

Theorem exec_shaped : forall cB sizes p m loc, shaped sizes m -> shaped sizes (fst (execB cB p (m, loc))).
Proof. intros cB sizes p m loc H. apply exec_shaped_gen, H. Qed.

Lemma execB_app : forall cB p1 p2 st, execB cB (p1 ++ p2) st = execB cB p2 (execB cB p1 st).
Proof. intros. unfold execB, exec. apply fold_left_app. Qed.
Lemma execB_closed : forall cB p m loc, locals_closed p = true ->
  fst (execB cB p (m, loc)) = fst (execB cB p (m, [])).
Proof. intros. apply locals_closed_sound. assumption. Qed.

(* One checked segment, started in a shaped memory with no locals or not reading the incoming locals,
   ends in the memory its specification gives, which is shaped again. *)
Lemma seg_sound : forall cP cB sizes p sP sB,
  call_hom cP cB -> spec_hom sizes sP sB -> check_kernel cP sizes p sP = true ->
  forall m loc, shaped sizes m -> loc = [] \/ locals_closed p = true ->
  shaped sizes (sB m) /\ execB cB p (m, loc) = (sB m, snd (execB cB p (m, loc))).
Proof.
  intros cP cB sizes p sP sB Hc Hs Hk m loc Hm Hloc.
  assert (E : fst (execB cB p (m, loc)) = sB m).
  { rewrite <- (check_kernel_sound cP cB sizes p sP sB Hc Hs Hk m Hm).
    destruct Hloc as [->|L]; [reflexivity | apply execB_closed, L]. }
  split; [rewrite <- E; apply exec_shaped_gen, Hm | rewrite <- E; apply surjective_pairing].
Qed.

Theorem check_two_segments : forall cP cB sizes p1 p2 s1P s1B s2P s2B,
  call_hom cP cB -> spec_hom sizes s1P s1B -> spec_hom sizes s2P s2B ->
  check_kernel cP sizes p1 s1P = true -> check_kernel cP sizes p2 s2P = true ->
  locals_closed p2 = true -> stores_in_bounds sizes p1 = true ->
  forall m, shaped sizes m -> fst (execB cB (p1 ++ p2) (m, [])) = s2B (s1B m).
Proof.
  (* the bounds of p1's stores play no part: any store keeps the shape ([store_shaped]) *)
  intros cP cB sizes p1 p2 s1P s1B s2P s2B Hc H1 H2 K1 K2 L2 _ m Hm. rewrite execB_app.
  destruct (seg_sound cP cB sizes p1 s1P s1B Hc H1 K1 m [] Hm (or_introl eq_refl)) as [Sh ->].
  destruct (seg_sound cP cB sizes p2 s2P s2B Hc H2 K2 _ (snd (execB cB p1 (m, []))) Sh (or_intror L2))
    as [_ ->].
  reflexivity.
Qed.

(* a segment is a program with the two instances of its specification step *)
Record segment : Type := mkSeg {
  seg_prog : list stmt;
  seg_specP : mem poly -> mem poly;
  seg_specB : mem bool -> mem bool
}.

Definition seg_checked (cP : nat -> list poly -> list poly) (sizes : list nat) (s : segment) : Prop :=
  spec_hom sizes (seg_specP s) (seg_specB s) /\
  check_kernel cP sizes (seg_prog s) (seg_specP s) = true /\
  stores_in_bounds sizes (seg_prog s) = true.

Definition segs_prog (segs : list segment) : list stmt := concat (map seg_prog segs).
Definition segs_specB (segs : list segment) (m : mem bool) : mem bool :=
  fold_left (fun acc s => seg_specB s acc) segs m.

(* the computable part of the hypotheses of [check_segments] (everything except [spec_hom]) *)
Definition check_segments_b (cP : nat -> list poly -> list poly) (sizes : list nat)
                            (segs : list segment) : bool :=
  forallb (fun s => check_kernel cP sizes (seg_prog s) (seg_specP s) &&
                    stores_in_bounds sizes (seg_prog s)) segs &&
  forallb (fun s => locals_closed (seg_prog s)) (tl segs).

(* [check_segments] started with any locals [loc]: unless [loc] is empty, the first segment must not read them either *)
Lemma check_segments_from : forall cP cB sizes segs,
  call_hom cP cB ->
  Forall (seg_checked cP sizes) segs ->
  Forall (fun s => locals_closed (seg_prog s) = true) (tl segs) ->
  forall m loc, shaped sizes m ->
  match segs with [] => True | s :: _ => loc = [] \/ locals_closed (seg_prog s) = true end ->
  fst (execB cB (segs_prog segs) (m, loc)) = segs_specB segs m.
Proof.
  intros cP cB sizes segs Hc Hk. induction Hk as [|s segs [Hs [Kc _]] _ IH]; intros Hl m loc Hm H1; [reflexivity|].
  unfold segs_prog, segs_specB. cbn [map concat fold_left]. cbn [tl] in Hl. rewrite execB_app.
  destruct (seg_sound cP cB sizes _ _ _ Hc Hs Kc m loc Hm H1) as [Sh ->].
  apply IH; [destruct Hl; [constructor | assumption] | exact Sh | destruct Hl; [exact I | right; assumption]].
Qed.

Theorem check_segments : forall cP cB sizes segs,
  call_hom cP cB ->
  Forall (seg_checked cP sizes) segs ->
  Forall (fun s => locals_closed (seg_prog s) = true) (tl segs) ->
  forall m, shaped sizes m ->
  fst (execB cB (segs_prog segs) (m, [])) = segs_specB segs m.
Proof.
  intros cP cB sizes segs Hc Hk Hl m Hm. apply (check_segments_from cP cB sizes segs Hc Hk Hl m [] Hm).
  destruct segs; [exact I | left; reflexivity].
Qed.

Theorem check_segments_b_sound : forall cP cB sizes segs,
  call_hom cP cB ->
  Forall (fun s => spec_hom sizes (seg_specP s) (seg_specB s)) segs ->
  check_segments_b cP sizes segs = true ->
  forall m, shaped sizes m ->
  fst (execB cB (segs_prog segs) (m, [])) = segs_specB segs m.
Proof.
  intros cP cB sizes segs Hc Hs Hb. apply andb_true_iff in Hb. destruct Hb as [Hb1 Hb2].
  apply (check_segments cP cB sizes segs Hc); [|apply Forall_forall, forallb_forall, Hb2].
  rewrite Forall_forall in *. rewrite forallb_forall in Hb1. intros s Hin.
  destruct (proj1 (andb_true_iff _ _) (Hb1 s Hin)) as [K S]. exact (conj (Hs s Hin) (conj K S)).
Qed.

Fixpoint loads_ok (sizes : list nat) (e : expr) : bool :=
  match e with
  | EConst _ _ => true
  | ELocal _ => true
  | ELoad r off n => Nat.ltb r (length sizes) && Nat.leb (off + n) (nth r sizes 0)
  | ENot a => loads_ok sizes a
  | EBin _ a b => loads_ok sizes a && loads_ok sizes b
  | EShl _ a _ => loads_ok sizes a
  | EShrL _ a _ => loads_ok sizes a
  | EShrA _ a _ => loads_ok sizes a
  | ESlice a _ _ => loads_ok sizes a
  | EConcat l => forallb (loads_ok sizes) l
  | EZext _ a => loads_ok sizes a
  | ESext _ a => loads_ok sizes a
  | ECall _ a => loads_ok sizes a
  | EAdd a b => loads_ok sizes a && loads_ok sizes b
  end.

(* the running list of local widths, updated like the local environment of [exec1]
   (a never-assigned local below an assigned one is the empty vector, of width 0) *)
Definition set_width (x w : nat) (lw : list nat) : list nat :=
  if Nat.ltb x (length lw) then set_nth x w lw else lw ++ repeat 0 (x - length lw) ++ [w].

Fixpoint wf_prog_from (sizes : list nat) (lw : list nat) (p : list stmt) : bool :=
  match p with
  | [] => true
  | SLocal x e :: p' =>
      loads_ok sizes e &&
      match width lw e with
      | Some w => wf_prog_from sizes (set_width x w lw) p'
      | None => false
      end
  | SStore r off n e :: p' =>
      loads_ok sizes e &&
      Nat.ltb r (length sizes) && Nat.leb (off + n) (nth r sizes 0) &&
      match width lw e with
      | Some w => Nat.leb (8 * n) w && wf_prog_from sizes lw p'
      | None => false
      end
  end.
Definition wf_prog (sizes : list nat) (p : list stmt) : bool := wf_prog_from sizes [] p.

(* the smoke test of the checker: it accepts a right specification and rejects a wrong one *)
Module Toy.
  Definition noP : nat -> list poly -> list poly := fun _ l => l.
  Definition noB : nat -> list bool -> list bool := fun _ l => l.
  Definition sizes := [1; 1].
  Definition p : list stmt :=
    [SLocal 0 (ELoad 0 0 1);
     SStore 1 0 1 (EBin BXor (ELocal 0) (EShl 8 (ELocal 0) 1))].

  (* the specification step, written once for any carrier: region 1 byte 0 := x xor (x << 1), x = region 0 byte 0 *)
  Definition spec {B} (bx : B -> B -> B) (z : B) (m : mem B) : mem B :=
    let x := take_pad B 8 z (nth 0 (nth 0 m []) (repeat z 8)) in
    let y := map2 B bx x (firstn 8 (z :: x)) in
    set_nth 1 (set_nth 0 y (nth 1 m [])) m.
  Definition specP := spec pxor pzero.
  Definition specB := spec xorb false.
  (* a wrong specification: shift by two *)
  Definition bad {B} (bx : B -> B -> B) (z : B) (m : mem B) : mem B :=
    let x := take_pad B 8 z (nth 0 (nth 0 m []) (repeat z 8)) in
    let y := map2 B bx x (firstn 8 (z :: z :: x)) in
    set_nth 1 (set_nth 0 y (nth 1 m [])) m.

  Example toy_wf : wf_prog sizes p = true.
  Proof. vm_compute. reflexivity. Qed.
  Example toy_closed : locals_closed p = true.
  Proof. vm_compute. reflexivity. Qed.
  Example toy_bounds : stores_in_bounds sizes p = true.
  Proof. vm_compute. reflexivity. Qed.
  Example toy_check : check_kernel noP sizes p specP = true.
  Proof. vm_compute. reflexivity. Qed.
  Example toy_check_bad : check_kernel noP sizes p (bad pxor pzero) = false.
  Proof. vm_compute. reflexivity. Qed.
  Example toy_not_closed : locals_closed [SStore 1 0 1 (ELocal 0)] = false.
  Proof. vm_compute. reflexivity. Qed.
  Example toy_not_wf : wf_prog sizes [SStore 1 1 1 (ELoad 0 0 1)] = false.
  Proof. vm_compute. reflexivity. Qed.

  Lemma toy_call_hom : call_hom noP noB.
  Proof. intros rho f l. reflexivity. Qed.

  Lemma toy_spec_hom : spec_hom sizes specP specB.
  Proof.
    intros rho m _. unfold specP, specB, spec.
    rewrite !nth_mmap. unfold mmap at 1. rewrite !set_nth_map. fold (mmap rho m).
    f_equal. f_equal. unfold vmap.
    rewrite (map2_hom poly bool (peval rho) pxor xorb (peval_pxor rho)).
    rewrite <- firstn_map. cbn [map].
    rewrite (take_pad_hom poly bool (peval rho)).
    change (peval rho pzero) with false.
    change (repeat false 8) with (map (peval rho) (repeat pzero 8)).
    rewrite map_nth. reflexivity.
  Qed.

  Theorem toy_correct : forall m : mem bool, shaped sizes m -> fst (execB noB p (m, [])) = specB m.
  Proof.
    apply (check_kernel_sound noP noB sizes p specP specB toy_call_hom toy_spec_hom toy_check).
  Qed.
End Toy.
