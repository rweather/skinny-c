(* WholeBridge.v — from the whole-function obligations (generated per build configuration by translator/c2sir.py:
   check_block_w ... = true for the flattened skinny*_ecb_encrypt / _decrypt of the CURRENT source at each round
   count) to the hand-written model (ModelCipher.v), hence to the paper-level specification:

     for every memory whose key-schedule region is the byte image of a model key schedule with R rounds, the
     output region after running the C function is the model's (= the specification's) ciphertext / plaintext.

   The statements quantify over ALL blocks, ALL schedule contents (all 56 / 40 slots), the prior content of the
   output buffer and of the local state. *)
From Coq Require Import List NArith Arith Lia.
From Skinny Require Import ListFacts Bits IR SIR Anf IRCheck KernelSpecs KernelHom KernelHom2 SIRCheck WholeSpecs
                           Frame SIRProofs ModelCipher KernelBridge.
Import ListNotations.

(* the byte image of a list of bytes; three spellings of the same map occur in the statements of the Whole* files:
   [bitsB], [bits], and [bitsb] (WholeKey.v) *)
Notation bitsB := (map (bits_of_c8 bool)).
Notation bits := bitsB.
(* map_length at the type [byte]: map_length itself leaves the length of a list of [c8 bool], which no hypothesis about a
   list of bytes matches syntactically *)
Lemma bitsB_length : forall l : list byte, length (bitsB l) = length l.
Proof. intros l. apply map_length. Qed.
Lemma bits_len8 : forall (l : list byte), Forall (fun b => length b = 8) (bitsB l).
Proof.
  intros l. apply Forall_forall. intros b Hb. apply in_map_iff in Hb. destruct Hb as [x [<- _]].
  destruct x as [[[[[[[? ?] ?] ?] ?] ?] ?] ?]. reflexivity.
Qed.
(* the image of a byte is the 8 bits of its value *)
Lemma byte_of_N_cbits : forall v, bits_of_c8 bool (byte_of_N v) = cbits 8 v.
Proof.
  intros v. unfold byte_of_N, bits_of_c8, const_bits. cbn [seq map N.of_nat Pos.of_succ_nat Pos.succ].
  repeat f_equal; destruct (N.testbit v _); reflexivity.
Qed.
Lemma bits_of_c8_cbits : forall b : byte, bits_of_c8 bool b = cbits 8 (N_of_byte b).
Proof. intros b. rewrite <- byte_of_N_cbits, byte_of_N_of_byte. reflexivity. Qed.

Lemma bits_region : forall n (l : list byte), length l = n -> region_ok n (bits l).
Proof. intros n l H. split; [rewrite map_length; exact H | apply bits_len8]. Qed.

Notation callP := (callf_spec poly pxor pand pzero pone).
Notation callB := (callf_spec bool xorb andb false true).

Definition ksf : field := (2, 0, 4).            (* the public field ks->rounds *)

(* A checked block function folds a round step F over the first R slots of the schedule image, forwards or backwards;
   run through the reference interpreter it leaves the model's result in the output region. *)
Section Generic.
  Variables (bs kssize slot0 slotsz : nat).
  Variable E : Type.                                          (* schedule slot of the model: half byte / half nib *)
  Variable hb : E -> list (list bool).                        (* its byte image *)
  Hypothesis hb_len : forall e, length (hb e) = slotsz.
  Hypothesis hb_len8 : forall e, Forall (fun b => length b = 8) (hb e).
  Let sizes := [bs; bs; kssize; bs].

  Definition ks_image (hdr : list (list bool)) (sched : list E) : list (list bool) := hdr ++ concat (map hb sched).

  Lemma slot_of_image : forall hdr sched i d, length hdr = slot0 -> i < length sched ->
    slot_of slot0 slotsz (ks_image hdr sched) i = hb (nth i sched d).
  Proof.
    intros hdr sched i d Hh Hi. unfold slot_of, slot_off, ks_image. rewrite <- Hh.
    rewrite slot_in_image.
    - rewrite (nth_indep _ [] (hb d)) by (rewrite map_length; exact Hi). apply map_nth.
    - apply Forall_forall. intros s Hs. apply in_map_iff in Hs. destruct Hs as [e [<- _]]. apply hb_len.
    - rewrite map_length. exact Hi.
  Qed.

  Lemma fold_slots : forall (F : list (list bool) -> list (list bool) -> list (list bool)) hdr sched d idx x,
    length hdr = slot0 -> (forall i, In i idx -> i < length sched) ->
    fold_left (fun s i => F s (slot_of slot0 slotsz (ks_image hdr sched) i)) idx x
    = fold_left (fun s e => F s (hb e)) (map (fun i => nth i sched d) idx) x.
  Proof.
    intros F hdr sched d idx. induction idx as [|i idx IH]; intros x Hh Hi; [reflexivity|].
    cbn [map fold_left]. rewrite (slot_of_image hdr sched i d Hh) by (apply Hi; left; reflexivity).
    apply IH; [exact Hh | intros j Hj; apply Hi; right; exact Hj].
  Qed.

  Lemma shaped4 : forall (out blk st : list byte) (hdr : list (list bool)) (sched : list E),
    length out = bs -> length blk = bs -> length st = bs -> length hdr = slot0 ->
    Forall (fun b => length b = 8) hdr -> slot0 + slotsz * length sched = kssize ->
    shaped sizes [bits out; bits blk; ks_image hdr sched; bits st].
  Proof.
    intros out blk st hdr sched Ho Hb Hs Hh Hh8 Hk. apply shapedF_shaped. unfold sizes.
    repeat apply Forall2_cons; auto using Forall2_nil, bits_region. unfold ks_image. split.
    - rewrite app_length, Hh, (concat_map_length hb slotsz hb_len), Nat.mul_comm. exact Hk.
    - apply Forall_app. split; [exact Hh8|]. apply Forall_concat, Forall_map, Forall_forall. intros e _. apply hb_len8.
  Qed.

  (* [rv] tells decryption (slots R-1 .. 0) from encryption; [Hclosed] is WholeSpecs.enc_closed / dec_closed, and [mdl] the
     model's result, known to be the fold of the kernel round steps over ModelCipher.used of a schedule with N.of_nat R
     rounds, so that KernelBridge.m*_by_kernels is that hypothesis as it stands.
     [4 <= slot0]: the public field ks->rounds (unsigned, 4 bytes at offset 0) lies in the header before slot 0.
     [[0; 0; 0]%N]: the public locals at entry, i.e. the null flags translator/c2sir.py gives the three pointer parameters
     output, input, ks: all three non-null. *)
  Theorem block_final : forall (F : list (list bool) -> list (list bool) -> list (list bool)) (rv : bool) (mdl : list byte)
      code fuel R pl' sh' c t offs stepsP stepsB,
    4 <= slot0 -> 0 < R ->
    Forall2 (spec_hom (sizesW sizes 2 slotsz)) stepsP stepsB ->
    (forall x0 x1 ks st, 0 < R ->
       fold_left (fun acc (ob : nat * (mem bool -> mem bool)) => unwindow bool 2 acc (snd ob (window bool 2 (fst ob) slotsz acc)))
                 (combine offs stepsB) [x0; x1; ks; st]
       = let st' := fold_left (fun s i => F s (slot_of slot0 slotsz ks i)) (if rv then rev (seq 0 R) else seq 0 R) x1 in
         [st'; x1; ks; st']) ->
    flat [ksf] fuel [0; 0; 0]%N [(ksf, N.of_nat R)] code = Some (pl', sh', c, t) ->
    check_block_w callP sizes 2 slotsz c offs stepsP stepsB = true ->
    forall (out blk st hdr : list byte) (sched : list E) (d : E),
    length out = bs -> length blk = bs -> length st = bs -> length hdr = slot0 ->
    forall n, length sched = n -> slot0 + slotsz * n = kssize -> R <= n ->
    bits mdl = fold_left (fun s e => F s (hb e))
                 (let used := firstn (N.to_nat (N.of_nat R)) sched in if rv then rev used else used) (bits blk) ->
    let m0 : mem bool := [bits out; bits blk; ks_image (bits hdr) sched; bits st] in
    field_val m0 ksf = N.of_nat R ->
    exists st', interp [ksf] callB fuel [0; 0; 0]%N (m0, []) code = Some (pl', st', t)
      /\ nth 0 (fst st') [] = bits mdl /\ nth 1 (fst st') [] = bits blk /\ nth 2 (fst st') [] = ks_image (bits hdr) sched.
  Proof.
    intros F rv mdl code fuel R pl' sh' c t offs stepsP stepsB H4 HR0 Hhom Hclosed Hflat Hk
           out blk st hdr sched d Ho Hb Hs Hh n <- Hz HR Hmdl m0 Hv.
    assert (Hh' : length (bits hdr) = slot0) by (rewrite map_length; exact Hh).
    cbv zeta in Hmdl. rewrite Nat2N.id in Hmdl.
    exists (execB callB c (m0, [])). split.
    - apply (run_final [ksf] callB code fuel _ _ pl' sh' c t eq_refl Hflat).
      apply Inv_single; [exact Hv|]. split; [repeat constructor|].
      unfold m0, ks_image. cbn [nth]. rewrite app_length, Hh'. lia.
    - rewrite (check_block_w_sound callP callB sizes 2 slotsz c _ _ _ callf_spec_hom Hhom Hk m0)
        by (apply shaped4; auto using bits_len8).
      unfold m0. rewrite Hclosed by exact HR0. cbn zeta. cbn [nth]. split; [|split; reflexivity].
      rewrite Hmdl, (fold_slots F (bits hdr) sched d _ _ Hh').
      + destruct rv; rewrite ?map_rev, (map_nth_seq sched d 0 R HR); reflexivity.
      + intros i Hi. destruct rv; [apply in_rev in Hi|]; apply in_seq in Hi; lia.
  Qed.
End Generic.

Lemma hb128_len8 : forall e : half byte, Forall (fun b => length b = 8) (KernelSpecs2.half_bytes128 bool e).
Proof. intros e. unfold KernelSpecs2.half_bytes128. apply bits_len8. Qed.
Lemma hb64_len8 : forall e : half nib, Forall (fun b => length b = 8) (KernelSpecs2.half_bytes64 bool e).
Proof. intros e. unfold KernelSpecs2.half_bytes64. apply bits_len8. Qed.

Definition ks_image128 := ks_image (half byte) (KernelSpecs2.half_bytes128 bool).
Definition ks_image64 := ks_image (half nib) (KernelSpecs2.half_bytes64 bool).
(* Region sizes [output; input; key schedule object; local state] on LP64 (include/skinny128-cipher.h, skinny64-cipher.h):
   sizeof(Skinny128Key_t) = 456 = 8 (unsigned rounds, padded to the 8-byte alignment of the slots) + 56 slots of 8 bytes
   (SKINNY128_MAX_ROUNDS); sizeof(Skinny64Key_t) = 164 = 4 (rounds) + 40 slots of 4 bytes (SKINNY64_MAX_ROUNDS).
   Hence [length hdr = 8] resp. [= 4] in the statements: the header is what precedes slot 0. *)
Definition sizes128 : list nat := [16; 16; 456; 16].
Definition sizes64 : list nat := [8; 8; 164; 8].

(* the final form, one per block function; the generated files instantiate code, fuel, R and discharge the two
   computational hypotheses (flat, check_block_w) by vm_compute and [field_val m0 ksf = N.of_nat R] from the layout *)
Theorem enc128_final : forall code fuel R pl' sh' c t, 0 < R -> R <= 56 ->
  flat [ksf] fuel [0; 0; 0]%N [(ksf, N.of_nat R)] code = Some (pl', sh', c, t) ->
  check_block_w callP sizes128 2 8 c (enc_offs 8 8 R)
    (enc_stepsW poly (k128_subcells poly pxor pand pzero pone) (k128_enc_linear poly pxor pzero pone) R)
    (enc_stepsW bool (k128_subcells bool xorb andb false true) (k128_enc_linear bool xorb false true) R) = true ->
  forall (out blk st hdr : list byte) (sched : list (half byte)),
  length out = 16 -> length blk = 16 -> length st = 16 -> length hdr = 8 -> length sched = 56 ->
  let m0 : mem bool := [bits out; bits blk; ks_image128 (bits hdr) sched; bits st] in
  field_val m0 ksf = N.of_nat R ->
  exists st', interp [ksf] callB fuel [0; 0; 0]%N (m0, []) code = Some (pl', st', t)
    /\ nth 0 (fst st') [] = bits (m128_encrypt {| ks_rounds := N.of_nat R; ks_sched := sched |} blk)
    /\ nth 1 (fst st') [] = bits blk /\ nth 2 (fst st') [] = ks_image128 (bits hdr) sched.
Proof.
  intros code fuel R pl' sh' c t HR HRmax Hflat Hcheck out blk st hdr sched Ho Hb Hs Hh Hsc.
  exact (block_final 16 456 8 8 (half byte) _ (half_bytes128_length bool) hb128_len8
           (fun s k => reg bool (k128_enc_linear bool xorb false true [reg bool (k128_subcells bool xorb andb false true [s; k]) 0; k]) 0)
           false _ code fuel R pl' sh' c t _ _ _ (proj1 (Nat.leb_le 4 8) eq_refl) HR
           (enc_stepsW_hom _ _ _ _ _ R k128_subcells_homU k128_enc_linear_homU)
           (enc_closed 8 8 _ _ R)
           Hflat Hcheck out blk st hdr sched (zhalf byte byte0) Ho Hb Hs Hh 56 Hsc eq_refl HRmax
           (m128_encrypt_by_kernels {| ks_rounds := N.of_nat R; ks_sched := sched |} blk Hb)).
Qed.

Theorem dec128_final : forall code fuel R pl' sh' c t, 0 < R -> R <= 56 ->
  flat [ksf] fuel [0; 0; 0]%N [(ksf, N.of_nat R)] code = Some (pl', sh', c, t) ->
  check_block_w callP sizes128 2 8 c (dec_offs 8 8 R)
    (dec_stepsW poly (k128_subcells_inv poly pxor pand pzero pone) (k128_dec_linear poly pxor pzero pone) R)
    (dec_stepsW bool (k128_subcells_inv bool xorb andb false true) (k128_dec_linear bool xorb false true) R) = true ->
  forall (out blk st hdr : list byte) (sched : list (half byte)),
  length out = 16 -> length blk = 16 -> length st = 16 -> length hdr = 8 -> length sched = 56 ->
  let m0 : mem bool := [bits out; bits blk; ks_image128 (bits hdr) sched; bits st] in
  field_val m0 ksf = N.of_nat R ->
  exists st', interp [ksf] callB fuel [0; 0; 0]%N (m0, []) code = Some (pl', st', t)
    /\ nth 0 (fst st') [] = bits (m128_decrypt {| ks_rounds := N.of_nat R; ks_sched := sched |} blk)
    /\ nth 1 (fst st') [] = bits blk /\ nth 2 (fst st') [] = ks_image128 (bits hdr) sched.
Proof.
  intros code fuel R pl' sh' c t HR HRmax Hflat Hcheck out blk st hdr sched Ho Hb Hs Hh Hsc.
  exact (block_final 16 456 8 8 (half byte) _ (half_bytes128_length bool) hb128_len8
           (fun s k => reg bool (k128_subcells_inv bool xorb andb false true [reg bool (k128_dec_linear bool xorb false true [s; k]) 0; k]) 0)
           true _ code fuel R pl' sh' c t _ _ _ (proj1 (Nat.leb_le 4 8) eq_refl) HR
           (dec_stepsW_hom _ _ _ _ _ R k128_subcells_inv_homU k128_dec_linear_homU)
           (dec_closed 8 8 _ _ R)
           Hflat Hcheck out blk st hdr sched (zhalf byte byte0) Ho Hb Hs Hh 56 Hsc eq_refl HRmax
           (m128_decrypt_by_kernels {| ks_rounds := N.of_nat R; ks_sched := sched |} blk Hb)).
Qed.

Theorem enc64_final : forall code fuel R pl' sh' c t, 0 < R -> R <= 40 ->
  flat [ksf] fuel [0; 0; 0]%N [(ksf, N.of_nat R)] code = Some (pl', sh', c, t) ->
  check_block_w callP sizes64 2 4 c (enc_offs 4 4 R)
    (enc_stepsW poly (k64_subcells poly pxor pand pzero pone) (k64_enc_linear poly pxor pzero pone) R)
    (enc_stepsW bool (k64_subcells bool xorb andb false true) (k64_enc_linear bool xorb false true) R) = true ->
  forall (out blk st hdr : list byte) (sched : list (half nib)),
  length out = 8 -> length blk = 8 -> length st = 8 -> length hdr = 4 -> length sched = 40 ->
  let m0 : mem bool := [bits out; bits blk; ks_image64 (bits hdr) sched; bits st] in
  field_val m0 ksf = N.of_nat R ->
  exists st', interp [ksf] callB fuel [0; 0; 0]%N (m0, []) code = Some (pl', st', t)
    /\ nth 0 (fst st') [] = bits (m64_encrypt {| ks_rounds := N.of_nat R; ks_sched := sched |} blk)
    /\ nth 1 (fst st') [] = bits blk /\ nth 2 (fst st') [] = ks_image64 (bits hdr) sched.
Proof.
  intros code fuel R pl' sh' c t HR HRmax Hflat Hcheck out blk st hdr sched Ho Hb Hs Hh Hsc.
  exact (block_final 8 164 4 4 (half nib) _ (half_bytes64_length bool) hb64_len8
           (fun s k => reg bool (k64_enc_linear bool xorb false true [reg bool (k64_subcells bool xorb andb false true [s; k]) 0; k]) 0)
           false _ code fuel R pl' sh' c t _ _ _ (le_n 4) HR
           (enc_stepsW_hom _ _ _ _ _ R k64_subcells_homU k64_enc_linear_homU)
           (enc_closed 4 4 _ _ R)
           Hflat Hcheck out blk st hdr sched (zhalf nib nib0) Ho Hb Hs Hh 40 Hsc eq_refl HRmax
           (m64_encrypt_by_kernels {| ks_rounds := N.of_nat R; ks_sched := sched |} blk Hb)).
Qed.

Theorem dec64_final : forall code fuel R pl' sh' c t, 0 < R -> R <= 40 ->
  flat [ksf] fuel [0; 0; 0]%N [(ksf, N.of_nat R)] code = Some (pl', sh', c, t) ->
  check_block_w callP sizes64 2 4 c (dec_offs 4 4 R)
    (dec_stepsW poly (k64_subcells_inv poly pxor pand pzero pone) (k64_dec_linear poly pxor pzero pone) R)
    (dec_stepsW bool (k64_subcells_inv bool xorb andb false true) (k64_dec_linear bool xorb false true) R) = true ->
  forall (out blk st hdr : list byte) (sched : list (half nib)),
  length out = 8 -> length blk = 8 -> length st = 8 -> length hdr = 4 -> length sched = 40 ->
  let m0 : mem bool := [bits out; bits blk; ks_image64 (bits hdr) sched; bits st] in
  field_val m0 ksf = N.of_nat R ->
  exists st', interp [ksf] callB fuel [0; 0; 0]%N (m0, []) code = Some (pl', st', t)
    /\ nth 0 (fst st') [] = bits (m64_decrypt {| ks_rounds := N.of_nat R; ks_sched := sched |} blk)
    /\ nth 1 (fst st') [] = bits blk /\ nth 2 (fst st') [] = ks_image64 (bits hdr) sched.
Proof.
  intros code fuel R pl' sh' c t HR HRmax Hflat Hcheck out blk st hdr sched Ho Hb Hs Hh Hsc.
  exact (block_final 8 164 4 4 (half nib) _ (half_bytes64_length bool) hb64_len8
           (fun s k => reg bool (k64_subcells_inv bool xorb andb false true [reg bool (k64_dec_linear bool xorb false true [s; k]) 0; k]) 0)
           true _ code fuel R pl' sh' c t _ _ _ (le_n 4) HR
           (dec_stepsW_hom _ _ _ _ _ R k64_subcells_inv_homU k64_dec_linear_homU)
           (dec_closed 4 4 _ _ R)
           Hflat Hcheck out blk st hdr sched (zhalf nib nib0) Ho Hb Hs Hh 40 Hsc eq_refl HRmax
           (m64_decrypt_by_kernels {| ks_rounds := N.of_nat R; ks_sched := sched |} blk Hb)).
Qed.
