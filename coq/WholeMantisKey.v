(* WholeMantisKey.v — the WHOLE functions mantis_set_key / mantis_set_tweak / mantis_swap_modes of src/mantis-cipher.c (as
   translated into SIR.v and flattened at a public configuration: size, rounds, mode, null-ness of the tweak) against the
   model (ModelCipher.mantis_set_key / mantis_set_tweak / mantis_swap_modes) on the byte image of the schedule object,
   for ALL keys, tweaks and prior contents.  One symbolic run of the flattened function compared on the observable regions
   (SIRCheck.check_obs / WholeKey.obs_final). *)
From Coq Require Import List NArith Lia.
From Skinny Require Import ListFacts Bits SpecSkinny SpecMantis IR Anf IRCheck KernelSpecs KernelHom WholeSpecs
                           ModelCipher ProofsSkinny ProofsMantis WholeBridge WholeKey WholeMantis.
Import ListNotations.

Section Spec.
  Variable B : Type.
  Variables (bx : B -> B -> B) (b0 b1 : B).
  Notation reg := (reg B).
  Notation rg64 := (reg_of_state64 B).
  Notation C4 := (c4 B).
  Notation sx4 := (sx (c4 B) (cx4 B bx)).
  Notation rd := (rd8 B b0).
  Definition zst : state C4 := zero64 B b0.
  Definition alpha : state C4 := cst B b0 b1 ALPHA.
  Definition rounds_bytes (R : nat) : list (list B) := bytes_of B b0 4 (const_bits B b0 b1 32 (N.of_nat R)).

  (* regions: 0 = the schedule object (k0, k0', k1, tweak, rounds, padding), 1 = key *)
  Definition w_mantis_set_key (R : nat) (enc : bool) (m : mem B) : mem B :=
    let key := reg m 1 in
    let k0 := rd key 0 in let k1 := rd key 8 in let k0' := k0_prime B bx b0 k0 in
    [(if enc then rg64 k0 ++ rg64 k0' ++ rg64 k1 else rg64 k0' ++ rg64 k0 ++ rg64 (sx4 k1 alpha))
       ++ rg64 zst ++ rounds_bytes R ++ skipn 36 (reg m 0); key].
  (* regions: 0 = schedule, 1 = tweak *)
  Definition w_mantis_set_tweak (null : bool) (m : mem B) : mem B :=
    [firstn 24 (reg m 0) ++ (if null then rg64 zst else rg64 (rd (reg m 1) 0)) ++ skipn 32 (reg m 0); reg m 1].
  (* region 0 = schedule (observed alone) *)
  Definition w_mantis_swap (m : mem B) : mem B :=
    let ks := reg m 0 in
    [rg64 (rd ks 8) ++ rg64 (rd ks 0) ++ rg64 (sx4 (rd ks 16) alpha) ++ skipn 24 ks].
End Spec.

Section SpecHom.
  Variables B1 B2 : Type.
  Variables (bx1 : B1 -> B1 -> B1) (z1 o1 : B1).
  Variables (bx2 : B2 -> B2 -> B2) (z2 o2 : B2).
  Variable h : B1 -> B2.
  Hypothesis h_bx : forall a b, h (bx1 a b) = bx2 (h a) (h b).
  Hypothesis h_z : h z1 = z2.
  Hypothesis h_o : h o1 = o2.
  Notation hb := (map (map h)).
  Notation hm := (map (map (map h))).
  Notation H4 := (h4 B1 B2 h).
  Notation sm4 := (smapS (c4 B1) (c4 B2) (h4 B1 B2 h)).
  Let Hcx4 := h4_cx4 B1 B2 bx1 bx2 h h_bx.
  Let Hrg := reg_of_state64_homG B1 B2 h.
  Let Hreg := reg_homG B1 B2 h.
  Let Hrd := rd8_homG B1 B2 z1 z2 h h_z.

  Lemma k0_prime_homG : forall s, sm4 (k0_prime B1 bx1 z1 s) = k0_prime B2 bx2 z2 (sm4 s).
  Proof.
    intros s. dstate s. repeat match goal with x : Bits.c4 B1 |- _ => d4 x end.
    cbv. rewrite h_bx. reflexivity.
  Qed.
  Lemma zst_homG : sm4 (zst B1 z1) = zst B2 z2.
  Proof. exact (state64_of_bytes_homG B1 B2 z1 z2 h h_z []). Qed.
  Lemma alpha_homG : sm4 (alpha B1 z1 o1) = alpha B2 z2 o2.
  Proof. apply (cst_homG B1 B2 z1 o1 z2 o2 h h_z h_o). Qed.
  Lemma rounds_bytes_homG : forall R, hb (rounds_bytes B1 z1 o1 R) = rounds_bytes B2 z2 o2 R.
  Proof.
    intros R. unfold rounds_bytes.
    rewrite (bytes_of_hom B1 B2 z1 z2 h h_z), (const_bits_hom B1 B2 z1 o1 z2 o2 h h_z h_o). reflexivity.
  Qed.

  Lemma w_mantis_set_key_homG : forall R enc m,
    hm (w_mantis_set_key B1 bx1 z1 o1 R enc m) = w_mantis_set_key B2 bx2 z2 o2 R enc (hm m).
  Proof.
    intros R enc m. unfold w_mantis_set_key. cbv zeta. cbn [map]. rewrite !Hreg. f_equal.
    rewrite !map_app, skipn_map, rounds_bytes_homG, Hrg, zst_homG.
    destruct enc; rewrite !map_app, !Hrg, ?(smapS_sx _ _ H4 _ _ Hcx4), ?k0_prime_homG, ?alpha_homG, !Hrd; reflexivity.
  Qed.
  Lemma w_mantis_set_tweak_homG : forall null m,
    hm (w_mantis_set_tweak B1 z1 null m) = w_mantis_set_tweak B2 z2 null (hm m).
  Proof.
    intros null m. unfold w_mantis_set_tweak. cbn [map]. rewrite !Hreg. f_equal.
    rewrite !map_app, skipn_map, firstn_map. destruct null; rewrite Hrg, ?zst_homG, ?Hrd; reflexivity.
  Qed.
  Lemma w_mantis_swap_homG : forall m, hm (w_mantis_swap B1 bx1 z1 o1 m) = w_mantis_swap B2 bx2 z2 o2 (hm m).
  Proof.
    intros m. unfold w_mantis_swap. cbv zeta. cbn [map]. rewrite !Hreg. f_equal.
    rewrite !map_app, skipn_map, !Hrg, (smapS_sx _ _ H4 _ _ Hcx4), alpha_homG, !Hrd. reflexivity.
  Qed.
End SpecHom.

Lemma w_mantis_set_key_homU : forall R enc,
  homU (w_mantis_set_key poly pxor pzero pone R enc) (w_mantis_set_key bool xorb false true R enc).
Proof. intros R enc. homU_by w_mantis_set_key_homG. Qed.
Lemma w_mantis_set_tweak_homU : forall null, homU (w_mantis_set_tweak poly pzero null) (w_mantis_set_tweak bool false null).
Proof. intros null. homU_by w_mantis_set_tweak_homG. Qed.
Lemma w_mantis_swap_homU : homU (w_mantis_swap poly pxor pzero pone) (w_mantis_swap bool xorb false true).
Proof. homU_by w_mantis_swap_homG. Qed.

Notation rd8b := (rd8 bool false).

Lemma skipn_mimage : forall ks tail, skipn 32 (mimage ks tail) = bits tail.
Proof.
  intros ks tail. unfold mimage. change 32 with (8 + (8 + (8 + 8))).
  rewrite !skipn_add, !skipn8_rgb. reflexivity.
Qed.
Lemma skipn24_mimage : forall ks tail, skipn 24 (mimage ks tail) = rgb (mk_tweak ks) ++ bits tail.
Proof.
  intros ks tail. unfold mimage. change 24 with (8 + (8 + 8)).
  rewrite !skipn_add, !skipn8_rgb. reflexivity.
Qed.
Lemma firstn24_mimage : forall ks tail, firstn 24 (mimage ks tail) = rgb (mk_k0 ks) ++ rgb (mk_k0p ks) ++ rgb (mk_k1 ks).
Proof.
  intros ks tail. unfold mimage. change 24 with (8 + (8 + 8)).
  rewrite !firstn_add, !skipn8_rgb, !(firstn_app_exact _ _ 8 (rgb_len _)). reflexivity.
Qed.

Lemma rd8_bits : forall (key : list byte) off, off + 8 <= length key -> rd8b (bits key) off = load64 (firstn_skip 8 off key).
Proof.
  intros key off H. unfold rd8, firstn_skip. rewrite skipn_map, firstn_map. apply stb_bits.
  rewrite firstn_length, skipn_length. lia.
Qed.

Definition mtail (R : nat) (tail : list byte) : list (list bool) := rbytes R ++ skipn 4 (bits tail).

(* mantis_set_key: the image of the model's result, whatever the schedule held before *)
Theorem w_mantis_set_key_model : forall (R : nat) (mode : N) (key : list byte) (ks0 : list (list bool)) rest,
  length key = 16 -> 5 <= R <= 8 -> 36 <= length ks0 ->
  let res := mantis_set_key (mantis_fresh nib0) (Some key) 16 (N.of_nat R) mode in
  fst res = 1%N /\
  w_mantis_set_key bool xorb false true R (N.eqb mode 1) (ks0 :: bits key :: rest)
  = [rgb (mk_k0 (snd res)) ++ rgb (mk_k0p (snd res)) ++ rgb (mk_k1 (snd res)) ++ rgb (mk_tweak (snd res))
       ++ rbytes (N.to_nat (mk_rounds (snd res))) ++ skipn 36 ks0; bits key].
Proof.
  intros R mode key ks0 rest Hk HR _. cbv zeta. rewrite mantis_set_key_accepts by lia.
  unfold w_mantis_set_key, reg. cbn [nth]. cbv zeta.
  rewrite !rd8_bits by lia.
  destruct (N.eqb mode 1); cbn [fst snd mkey_enc mkey_dec mk_k0 mk_k0p mk_k1 mk_tweak mk_rounds]; (split; [reflexivity|]);
    rewrite Nat2N.id; unfold rounds_bytes, rbytes, zst, mzero, mk0prime, alpha, malpha, alpha_state, cst;
    rewrite <- !app_assoc; reflexivity.
Qed.

Theorem w_mantis_set_tweak_model : forall (ks : mantis_ks) (tail : list byte) (tw : option (list byte)) rest twreg,
  match tw with Some t => length t = 8 /\ twreg = bits t | None => True end ->
  let res := mantis_set_tweak ks tw 8 in
  fst res = 1%N /\
  w_mantis_set_tweak bool false (match tw with Some _ => false | None => true end) (mimage ks tail :: twreg :: rest)
  = [mimage (snd res) tail; twreg].
Proof.
  intros ks tail tw rest twreg Htw. cbv zeta. rewrite mantis_set_tweak_accepts. cbn [fst snd]. split; [reflexivity|].
  unfold w_mantis_set_tweak, reg. cbn [nth]. rewrite firstn24_mimage, skipn_mimage.
  unfold mimage, with_tweak, tweak_state. cbn [mk_k0 mk_k0p mk_k1 mk_tweak]. rewrite <- !app_assoc.
  destruct tw as [t|]; [|reflexivity].
  destruct Htw as [Hl ->]. rewrite rd8_bits0, (pad_to_id 8 t Hl) by exact Hl. reflexivity.
Qed.

Theorem w_mantis_swap_model : forall (ks : mantis_ks) (tail : list byte) rest,
  w_mantis_swap bool xorb false true (mimage ks tail :: rest) = [mimage (mantis_swap_modes ks) tail].
Proof.
  intros ks tail rest. unfold w_mantis_swap, reg. cbn [nth]. cbv zeta.
  rewrite rd8_mimage0, rd8_mimage8, rd8_mimage16, skipn24_mimage.
  unfold mimage, mantis_swap_modes. cbn [mk_k0 mk_k0p mk_k1 mk_tweak]. reflexivity.
Qed.

Print Assumptions w_mantis_set_key_model.
Print Assumptions w_mantis_set_tweak_model.
Print Assumptions w_mantis_swap_model.
