(* ProofsTools.v — C20: the three example programs of ModelTools.v (skinny-ctr, skinny-ecb, skinny-tweak) against
   the library-level results. *)
From Coq Require Import List Bool NArith Arith Lia.
From Skinny Require Import ListFacts Bits SpecSkinny ModelCipher ModelCtr Api
  ProofsCtr ProofsSkinny ProofsApiCtr ModelTools.
Import ListNotations.

Lemma io_chunks_blocks file : io_chunks file = blocks 1024 file.
Proof. reflexivity. Qed.

Lemma io_chunks_concat : forall file, concat (io_chunks file) = file.
Proof. intros file. rewrite io_chunks_blocks. apply blocks_concat. apply Nat.lt_0_succ. Qed.

Lemma opts_ok_true bs tweaked key tw : opts_ok bs tweaked key tw = true ->
  bs <= length key <= (if tweaked then 2 * bs else 3 * bs) /\ length (opt_block bs tw) <= bs.
Proof.
  unfold opts_ok. intros [[H1%Nat.leb_le H2%Nat.leb_le]%andb_prop H3]%andb_prop. split; [split; assumption|].
  destruct tw as [t|]; cbn [opt_block]; [apply Nat.leb_le, H3 | rewrite zeros_length; apply le_n].
Qed.

(* every tool has the shape "if opts_ok ... then Some ... else None" *)
Lemma if_Some_true {A} (b : bool) (x y : A) : (if b then Some x else None) = Some y -> b = true.
Proof. destruct b; [reflexivity|discriminate]. Qed.

Section CtrTool.
  Variable bs : nat.
  Variables K TK : Type.
  Variable zero_tk : TK.
  Variable tk_ks_of : TK -> K.
  Variable set_key_tk : TK -> buf -> N -> N * TK.
  Variable enc : K -> list byte -> list byte.
  Hypothesis Hbs : 0 < bs.
  Hypothesis Henc : forall k b, length (enc k b) = bs.

  Notation E := (fun t : TK => enc (tk_ks_of t)).
  Notation HE := (fun t : TK => Henc (tk_ks_of t)).
  Notation tool := (tool_ctr bs K TK zero_tk tk_ks_of set_key_tk enc).

  Theorem tool_ctr_spec_gen : forall B key cnt file, 0 < B -> opts_ok bs false key cnt = true ->
    let c := opt_block bs cnt in
    let c0 := zeros (bs - length c) ++ c in
    let k1 := snd (set_key_tk zero_tk (Some key) (N.of_nat (length key))) in
    tool B key cnt file = Some (ctr_xor bs (enc (tk_ks_of k1)) c0 0 file).
  Proof.
    intros B key cnt file HB Hok c c0 k1.
    destruct (opts_ok_true _ _ _ _ Hok) as [_ Hc]. fold c in Hc.
    unfold tool_ctr. rewrite Hok, set_counter_key. cbn [ctr_fresh c_key]. fold c k1. apply f_equal.
    set (st1 := reset_stream TK bs B (with_key TK _ k1)).
    destruct (set_counter_fresh TK E bs B Hbs HB HE st1 (Some c) (N.of_nat (length c))
                ltac:(lia)) as (_ & Hf & _).
    cbv zeta in Hf. rewrite Nat2N.id, pad_to_id in Hf by reflexivity. fold c0 in Hf.
    destruct (ctr_refinement TK E bs B Hbs HB HE _ c0 (io_chunks file) Hf)
      as (st' & outs & Hr & Hx & _ & _).
    unfold ctr_loop. rewrite (run_calls_fold TK E bs B _ _ _ _ [] Hr). cbn [snd app].
    rewrite Hx, io_chunks_concat, set_counter_key. reflexivity.
  Qed.

  Theorem tool_ctr_invalid_gen : forall B key cnt file, opts_ok bs false key cnt = false ->
    tool B key cnt file = None.
  Proof. intros B key cnt file H. unfold tool_ctr. now rewrite H. Qed.

  Theorem tool_ctr_length_gen : forall B key cnt file out, 0 < B ->
    tool B key cnt file = Some out -> length out = length file.
  Proof.
    intros B key cnt file out HB H. pose proof (if_Some_true _ _ _ H) as Hok.
    rewrite (tool_ctr_spec_gen B key cnt file HB Hok) in H. injection H as <-.
    apply ctr_xor_length; [exact Hbs|]. intros b. apply Henc.
  Qed.

  Theorem tool_ctr_involution_gen : forall B key cnt file out, 0 < B ->
    tool B key cnt file = Some out -> tool B key cnt out = Some file.
  Proof.
    intros B key cnt file out HB H. pose proof (if_Some_true _ _ _ H) as Hok.
    rewrite (tool_ctr_spec_gen B key cnt file HB Hok) in H. injection H as <-.
    rewrite (tool_ctr_spec_gen B key cnt _ HB Hok). cbv zeta. apply f_equal.
    apply ctr_involution; [exact Hbs|]. intros b. apply Henc.
  Qed.

  Theorem tool_ctr_backend_independent_gen : forall B1 B2 key cnt file, 0 < B1 -> 0 < B2 ->
    tool B1 key cnt file = tool B2 key cnt file.
  Proof.
    intros B1 B2 key cnt file H1 H2. destruct (opts_ok bs false key cnt) eqn:Hok.
    - now rewrite !tool_ctr_spec_gen by assumption.
    - now rewrite !tool_ctr_invalid_gen by assumption.
  Qed.
End CtrTool.

Theorem tool_ctr128_spec : forall B key cnt file, 0 < B -> opts_ok 16 false key cnt = true ->
  let c := opt_block 16 cnt in
  let c0 := zeros (16 - length c) ++ c in
  let ks := snd (m128_set_key (fresh_k128 byte0) (Some key) (N.of_nat (length key))) in
  tool_ctr128 B key cnt file = Some (ctr_xor 16 (m128_encrypt ks) c0 0 file).
Proof.
  intros B key cnt file HB Hok. cbv zeta. unfold tool_ctr128.
  rewrite tool_ctr_spec_gen; [|apply Nat.lt_0_succ|exact m128_encrypt_length|exact HB|exact Hok].
  cbv zeta. unfold set_plain128. now destruct (m128_set_key _ _ _).
Qed.
Theorem tool_ctr128_length : forall B key cnt file out, 0 < B ->
  tool_ctr128 B key cnt file = Some out -> length out = length file.
Proof. apply tool_ctr_length_gen; [apply Nat.lt_0_succ|exact m128_encrypt_length]. Qed.
Theorem tool_ctr128_involution : forall B key cnt file out, 0 < B ->
  tool_ctr128 B key cnt file = Some out -> tool_ctr128 B key cnt out = Some file.
Proof. apply tool_ctr_involution_gen; [apply Nat.lt_0_succ|exact m128_encrypt_length]. Qed.
Theorem tool_ctr128_backend_independent : forall B1 B2 key cnt file, 0 < B1 -> 0 < B2 ->
  tool_ctr128 B1 key cnt file = tool_ctr128 B2 key cnt file.
Proof. apply tool_ctr_backend_independent_gen; [apply Nat.lt_0_succ|exact m128_encrypt_length]. Qed.
Theorem tool_ctr128_invalid : forall B key cnt file, opts_ok 16 false key cnt = false ->
  tool_ctr128 B key cnt file = None.
Proof. apply tool_ctr_invalid_gen. Qed.

Theorem tool_ctr64_spec : forall B key cnt file, 0 < B -> opts_ok 8 false key cnt = true ->
  let c := opt_block 8 cnt in
  let c0 := zeros (8 - length c) ++ c in
  let ks := snd (m64_set_key (fresh_k64 byte0) (Some key) (N.of_nat (length key))) in
  tool_ctr64 B key cnt file = Some (ctr_xor 8 (m64_encrypt ks) c0 0 file).
Proof.
  intros B key cnt file HB Hok. cbv zeta. unfold tool_ctr64.
  rewrite tool_ctr_spec_gen; [|apply Nat.lt_0_succ|exact m64_encrypt_length|exact HB|exact Hok].
  cbv zeta. unfold set_plain64. now destruct (m64_set_key _ _ _).
Qed.
Theorem tool_ctr64_length : forall B key cnt file out, 0 < B ->
  tool_ctr64 B key cnt file = Some out -> length out = length file.
Proof. apply tool_ctr_length_gen; [apply Nat.lt_0_succ|exact m64_encrypt_length]. Qed.
Theorem tool_ctr64_involution : forall B key cnt file out, 0 < B ->
  tool_ctr64 B key cnt file = Some out -> tool_ctr64 B key cnt out = Some file.
Proof. apply tool_ctr_involution_gen; [apply Nat.lt_0_succ|exact m64_encrypt_length]. Qed.
Theorem tool_ctr64_backend_independent : forall B1 B2 key cnt file, 0 < B1 -> 0 < B2 ->
  tool_ctr64 B1 key cnt file = tool_ctr64 B2 key cnt file.
Proof. apply tool_ctr_backend_independent_gen; [apply Nat.lt_0_succ|exact m64_encrypt_length]. Qed.
Theorem tool_ctr64_invalid : forall B key cnt file, opts_ok 8 false key cnt = false ->
  tool_ctr64 B key cnt file = None.
Proof. apply tool_ctr_invalid_gen. Qed.

Definition whole_blocks (bs : nat) (file : list byte) : list byte :=
  firstn (length file - length file mod bs) file.

Lemma whole_blocks_nil bs : whole_blocks bs [] = [].
Proof. unfold whole_blocks. apply firstn_nil. Qed.

Lemma whole_blocks_length bs l : 0 < bs -> length (whole_blocks bs l) = (length l / bs) * bs.
Proof.
  intros Hbs. unfold whole_blocks. rewrite firstn_length, Nat.min_l by apply Nat.le_sub_l.
  rewrite (Nat.div_mod (length l) bs) at 1 by lia. rewrite Nat.add_sub. apply Nat.mul_comm.
Qed.

Lemma whole_blocks_mod bs l : 0 < bs -> length (whole_blocks bs l) mod bs = 0.
Proof. intros Hbs. rewrite whole_blocks_length by exact Hbs. apply Nat.mod_mul. lia. Qed.

Lemma whole_blocks_id bs k l : 0 < bs -> length l = k * bs -> whole_blocks bs l = l.
Proof.
  intros Hbs H. unfold whole_blocks. rewrite H, Nat.mod_mul, Nat.sub_0_r, <- H by lia.
  apply firstn_all.
Qed.

Lemma whole_blocks_app bs k c rest : 0 < bs -> length c = k * bs ->
  whole_blocks bs (c ++ rest) = c ++ whole_blocks bs rest.
Proof.
  intros Hbs H. unfold whole_blocks. rewrite app_length, H.
  rewrite (Nat.add_comm (k * bs)), Nat.mod_add by lia.
  pose proof (Nat.mod_le (length rest) bs ltac:(lia)) as L.
  rewrite firstn_app, H. f_equal.
  - apply firstn_all2. lia.
  - f_equal. lia.
Qed.

Lemma whole_blocks_short bs l : length l < bs -> whole_blocks bs l = [].
Proof. intros H. unfold whole_blocks. rewrite Nat.mod_small, Nat.sub_diag by exact H. reflexivity. Qed.

Lemma div_app_len bs k a b : 0 < bs -> a = k * bs -> (a + b) / bs = k + b / bs.
Proof. intros Hbs ->. rewrite Nat.add_comm, Nat.div_add by lia. lia. Qed.

Lemma div_skipn {A} bs (l : list A) : 0 < bs -> bs <= length l ->
  length l / bs = S (length (skipn bs l) / bs).
Proof.
  intros Hbs H. rewrite <- (firstn_skipn bs l) at 1. rewrite app_length.
  apply (div_app_len bs 1); [exact Hbs|]. rewrite firstn_length. lia.
Qed.

(* The input is read in chunks of N bytes, N a multiple of the block size, so only the last chunk
   can end in a partial block.  A function g of (index of the first block, data) that is additive
   over block-aligned splits therefore does not see the chunking. *)
Section Chunked.
  Variables bs N : nat.
  Hypothesis Hbs : 0 < bs.
  Hypothesis HN : 0 < N.
  Hypothesis HNm : N mod bs = 0.
  Variable g : nat -> list byte -> list byte.
  Hypothesis g_nil : forall i, g i [] = [].
  Hypothesis g_app : forall k c r i, length c = k * bs -> g i (c ++ r) = g i c ++ g (i + k) r.

  (* g on each chunk, from the block index that the chunks before it have reached *)
  Fixpoint indexed (i : nat) (cs : list (list byte)) : list (list byte) :=
    match cs with
    | [] => []
    | c :: cs' => g i c :: indexed (i + length c / bs) cs'
    end.

  Lemma chunks_invisible file i : concat (indexed i (blocks N file)) = g i file.
  Proof.
    enough (Hk : forall k file i, length file <= k * N ->
                   concat (indexed i (blocks N file)) = g i file)
      by (apply (Hk (length file)); nia).
    clear file i. destruct (mod0_mult N bs Hbs HNm) as [n Hn].
    induction k as [|k IH]; intros file i H.
    - destruct file; [|cbn in H; lia]. now rewrite g_nil.
    - destruct file as [|x file']; [now rewrite g_nil|].
      set (file := x :: file') in *.
      rewrite (blocks_step N file HN) by discriminate. cbn [indexed concat].
      destruct (le_lt_dec (length file) N) as [Hs|Hl].
      + rewrite firstn_all2, skipn_all2 by exact Hs. cbn. apply app_nil_r.
      + assert (Hc : length (firstn N file) = n * bs) by (rewrite firstn_length; lia).
        rewrite IH by (rewrite skipn_length; lia).
        rewrite Hc, Nat.div_mul by lia.
        rewrite <- (firstn_skipn N file) at 3. symmetry. now apply g_app.
  Qed.
End Chunked.

Lemma indexed_const bs (h : list byte -> list byte) cs : forall i,
  indexed bs (fun _ => h) i cs = map h cs.
Proof. induction cs as [|c cs IH]; intros i; cbn [indexed map]; [|rewrite IH]; reflexivity. Qed.

Definition ecb_all (bs : nat) (f : list byte -> list byte) (l : list byte) : list byte :=
  concat (map f (blocks bs (whole_blocks bs l))).

Lemma ecb_all_nil bs f : ecb_all bs f [] = [].
Proof. unfold ecb_all. now rewrite whole_blocks_nil. Qed.
Lemma ecb_all_app bs f k c rest : 0 < bs -> length c = k * bs ->
  ecb_all bs f (c ++ rest) = ecb_all bs f c ++ ecb_all bs f rest.
Proof.
  intros Hbs H. unfold ecb_all. rewrite (whole_blocks_app bs k c rest Hbs H).
  rewrite (whole_blocks_id bs k c Hbs H), (blocks_app bs Hbs k c _ H), map_app, concat_app.
  reflexivity.
Qed.

Section EcbTool.
  Variable bs : nat.
  Variable K : Type.
  Variable set_key_k : K -> buf -> N -> N * K.
  Variable zero_k : K.
  Variable enc dec : K -> list byte -> list byte.
  Hypothesis Hbs : 0 < bs.
  Hypothesis Hchunk : 1024 mod bs = 0.       (* 1024: the tools' fread buffer, ModelTools.io_chunks *)

  Notation tool := (tool_ecb bs K set_key_k zero_k enc dec).

  Theorem tool_ecb_spec_gen : forall has_vt psize decrypt key file, 0 < psize -> psize mod bs = 0 ->
    opts_ok bs false key None = true ->
    let ks := snd (set_key_k zero_k (Some key) (N.of_nat (length key))) in
    tool has_vt psize decrypt key file
    = Some (concat (map (if decrypt then dec ks else enc ks) (blocks bs (whole_blocks bs file)))).
  Proof.
    intros has_vt psize decrypt key file Hp Hpm Hok ks. unfold tool_ecb. rewrite Hok. fold ks.
    set (f := if decrypt then dec ks else enc ks). apply f_equal.
    change (concat (map f (blocks bs (whole_blocks bs file)))) with (ecb_all bs f file).
    rewrite <- (chunks_invisible bs 1024 Hbs (Nat.lt_0_succ _) Hchunk (fun _ => ecb_all bs f)
                  (fun _ => ecb_all_nil bs f) (fun k c r _ => ecb_all_app bs f k c r Hbs) file 0).
    rewrite indexed_const, io_chunks_blocks. f_equal. apply map_ext. intros c.
    change (whole bs c) with (whole_blocks bs c).
    rewrite (par_crypt_spec bs (fun _ => f) has_vt psize _ _ Hbs Hp Hpm
               (whole_blocks_mod bs c Hbs) eq_refl).
    cbv beta. rewrite (map_combine_diag f). reflexivity.
  Qed.

  Theorem tool_ecb_invalid_gen : forall v p d key file, opts_ok bs false key None = false ->
    tool v p d key file = None.
  Proof. intros v p d key file H. unfold tool_ecb. now rewrite H. Qed.

  Hypothesis Henc : forall k b, length (enc k b) = bs.
  Hypothesis Hrt : forall ks b, length b = bs -> dec ks (enc ks b) = b.

  Theorem tool_ecb_roundtrip_gen : forall v1 p1 v2 p2 key file out,
    0 < p1 -> p1 mod bs = 0 -> 0 < p2 -> p2 mod bs = 0 ->
    tool v1 p1 false key file = Some out -> tool v2 p2 true key out = Some (whole_blocks bs file).
  Proof.
    intros v1 p1 v2 p2 key file out H1 H1m H2 H2m H.
    pose proof (if_Some_true _ _ _ H) as Hok.
    rewrite (tool_ecb_spec_gen v1 p1 false key file H1 H1m Hok) in H. injection H as <-.
    rewrite (tool_ecb_spec_gen v2 p2 true key _ H2 H2m Hok). cbv zeta. apply f_equal.
    set (ks := snd (set_key_k zero_k (Some key) (N.of_nat (length key)))).
    rewrite (whole_blocks_id bs (length (blocks bs (whole_blocks bs file))) _ Hbs)
      by (apply concat_map_length; intros b; apply Henc).
    apply par_roundtrip_gen; [exact Hbs|apply Henc|apply Hrt|].
    now apply whole_blocks_mod.
  Qed.
End EcbTool.

(* decryption undoes encryption under any schedule, not only one that skinny-ecb's key option produces *)
Lemma ecb128_rt : forall ks b, length b = 16 -> m128_decrypt ks (m128_encrypt ks b) = b.
Proof.
  intros ks b Hb. apply (ecb_roundtrip byte bxor8 cnib8 S8b S8ib load128 store128 byte0
    bxor8_assoc bxor8_comm bxor8_nilp bxor8_0_r S8_inv_l S8_inv_r load_store128), store_load128, Hb.
Qed.
Lemma ecb64_rt : forall ks b, length b = 8 -> m64_decrypt ks (m64_encrypt ks b) = b.
Proof.
  intros ks b Hb. apply (ecb_roundtrip nib bxor4 cnib4 S4b S4ib load64 store64 nib0
    bxor4_assoc bxor4_comm bxor4_nilp bxor4_0_r S4_inv_l S4_inv_r load_store64), store_load64, Hb.
Qed.

Theorem tool_ecb128_spec : forall has_vt psize decrypt key file, 0 < psize -> psize mod 16 = 0 ->
  opts_ok 16 false key None = true ->
  let ks := snd (m128_set_key (fresh_k128 byte0) (Some key) (N.of_nat (length key))) in
  tool_ecb128 has_vt psize decrypt key file
  = Some (concat (map (if decrypt then m128_decrypt ks else m128_encrypt ks)
                      (blocks 16 (whole_blocks 16 file)))).
Proof. apply tool_ecb_spec_gen; [apply Nat.lt_0_succ|reflexivity]. Qed.
Theorem tool_ecb128_roundtrip : forall v1 p1 v2 p2 key file out,
  0 < p1 -> p1 mod 16 = 0 -> 0 < p2 -> p2 mod 16 = 0 ->
  tool_ecb128 v1 p1 false key file = Some out ->
  tool_ecb128 v2 p2 true key out = Some (whole_blocks 16 file).
Proof.
  apply tool_ecb_roundtrip_gen;
    [apply Nat.lt_0_succ|reflexivity|exact m128_encrypt_length|exact ecb128_rt].
Qed.
Theorem tool_ecb128_invalid : forall v p d key file, opts_ok 16 false key None = false ->
  tool_ecb128 v p d key file = None.
Proof. apply tool_ecb_invalid_gen. Qed.

Theorem tool_ecb64_spec : forall has_vt psize decrypt key file, 0 < psize -> psize mod 8 = 0 ->
  opts_ok 8 false key None = true ->
  let ks := snd (m64_set_key (fresh_k64 byte0) (Some key) (N.of_nat (length key))) in
  tool_ecb64 has_vt psize decrypt key file
  = Some (concat (map (if decrypt then m64_decrypt ks else m64_encrypt ks)
                      (blocks 8 (whole_blocks 8 file)))).
Proof. apply tool_ecb_spec_gen; [apply Nat.lt_0_succ|reflexivity]. Qed.
Theorem tool_ecb64_roundtrip : forall v1 p1 v2 p2 key file out,
  0 < p1 -> p1 mod 8 = 0 -> 0 < p2 -> p2 mod 8 = 0 ->
  tool_ecb64 v1 p1 false key file = Some out ->
  tool_ecb64 v2 p2 true key out = Some (whole_blocks 8 file).
Proof.
  apply tool_ecb_roundtrip_gen;
    [apply Nat.lt_0_succ|reflexivity|exact m64_encrypt_length|exact ecb64_rt].
Qed.
Theorem tool_ecb64_invalid : forall v p d key file, opts_ok 8 false key None = false ->
  tool_ecb64 v p d key file = None.
Proof. apply tool_ecb_invalid_gen. Qed.

(* skinny-tweak's output: block i of the whole blocks of the input under the tweak tw0 + i, for
   a tweakable block cipher Fenc/Fdec : tweak block -> block -> block; i counts from the index
   of the first block of the data *)
Section TwAll.
  Variable bs : nat.
  Variable Fenc Fdec : list byte -> list byte -> list byte.
  Hypothesis Hbs : 0 < bs.

  Definition twF (decrypt : bool) : list byte -> list byte -> list byte :=
    if decrypt then Fdec else Fenc.
  Definition tw_all (tw0 : list byte) (decrypt : bool) (i : nat) (data : list byte) : list byte :=
    concat (map (fun ib => twF decrypt (pad_to bs (ctr_add tw0 (N.of_nat (fst ib)))) (snd ib))
                (combine (seq i (length data / bs)) (blocks bs (whole_blocks bs data)))).

  Lemma tw_all_app tw0 d k c rest i : length c = k * bs ->
    tw_all tw0 d i (c ++ rest) = tw_all tw0 d i c ++ tw_all tw0 d (i + k) rest.
  Proof.
    intros H. unfold tw_all.
    rewrite app_length, (div_app_len bs k _ _ Hbs H), seq_app.
    rewrite (whole_blocks_app bs k c rest Hbs H), (blocks_app bs Hbs k c _ H).
    destruct (blocks_length_k bs Hbs k c H) as [_ HL].
    rewrite combine_app by (rewrite seq_length, HL; reflexivity).
    rewrite map_app, concat_app.
    rewrite H, Nat.div_mul by lia. rewrite (whole_blocks_id bs k c Hbs H). reflexivity.
  Qed.

  Lemma tw_all_short tw0 d i data : length data < bs -> tw_all tw0 d i data = [].
  Proof. intros H. unfold tw_all. rewrite Nat.div_small by exact H. reflexivity. Qed.

  Lemma tw_all_block tw0 d i b : length b = bs ->
    tw_all tw0 d i b = twF d (pad_to bs (ctr_add tw0 (N.of_nat i))) b.
  Proof.
    intros H. unfold tw_all. rewrite H, Nat.div_same by lia.
    rewrite (whole_blocks_id bs 1 b Hbs) by lia.
    rewrite (blocks_single bs b Hbs H). cbn. now rewrite app_nil_r.
  Qed.

  Lemma tw_all_step tw0 d i data : bs <= length data ->
    tw_all tw0 d i data
    = twF d (pad_to bs (ctr_add tw0 (N.of_nat i))) (firstn bs data) ++ tw_all tw0 d (S i) (skipn bs data).
  Proof.
    intros H. rewrite <- (firstn_skipn bs data) at 1.
    assert (Hf : length (firstn bs data) = bs) by (rewrite firstn_length; lia).
    rewrite (tw_all_app tw0 d 1) by lia. rewrite tw_all_block by exact Hf.
    now rewrite Nat.add_1_r.
  Qed.

  Hypothesis Fenc_len : forall T b, length (Fenc T b) = bs.
  Hypothesis Fdec_enc : forall T b, length b = bs -> Fdec T (Fenc T b) = b.

  (* by the recursion of the tool: the first block round-trips, the rest from the next index *)
  Lemma tw_all_roundtrip tw0 i file :
    tw_all tw0 true i (tw_all tw0 false i file) = whole_blocks bs file.
  Proof.
    enough (Hk : forall k data i, length data <= k ->
                   tw_all tw0 true i (tw_all tw0 false i data) = whole_blocks bs data)
      by (apply (Hk (length file)), le_n).
    clear i file.
    induction k as [|k IH]; intros data i Hk; destruct (le_lt_dec bs (length data)) as [Hge|Hlt].
    2, 4: rewrite (tw_all_short tw0 false), tw_all_short by (exact Hlt || exact Hbs);
          symmetry; apply whole_blocks_short, Hlt.
    - lia.
    - assert (Hf : length (firstn bs data) = bs) by (rewrite firstn_length; lia).
      rewrite (tw_all_step tw0 false i data Hge). unfold twF at 1.
      rewrite (tw_all_app tw0 true 1) by (rewrite Fenc_len; lia).
      rewrite tw_all_block by apply Fenc_len. unfold twF at 1. rewrite Fdec_enc by exact Hf.
      rewrite Nat.add_1_r, IH by (rewrite skipn_length; lia).
      rewrite <- (firstn_skipn bs data) at 3. symmetry. apply (whole_blocks_app bs 1); lia.
  Qed.
End TwAll.

Lemma latest_tweak_snoc bs cur qs w : length w <= bs ->
  latest_tweak bs cur (qs ++ [(Some w, N.of_nat (length w))])
  = if Nat.eqb (length w) 0 then latest_tweak bs cur qs else pad_to bs w.
Proof.
  intros Hw. unfold latest_tweak. rewrite fold_left_app. cbn [fold_left].
  rewrite tweak_valid_of_nat, tweak_bytes_of_nat, firstn_all, (proj2 (Nat.leb_le _ _) Hw), andb_true_r.
  destruct (length w); reflexivity.
Qed.

Section Good.
  Variable bs : nat.
  Variable TK : Type.
  Variable set_tweak : TK -> buf -> N -> N * TK.
  Variable t0 : TK.

  (* t is reached from t0 by a history of set_tweak calls whose latest valid tweak is T; by C04
     that is all the block functions of t depend on *)
  Definition good (t : TK) (T : list byte) : Prop :=
    exists qs : list tweak_req,
      t = fold_left (fun t q => snd (set_tweak t (fst q) (snd q))) qs t0
      /\ latest_tweak bs (zeros bs) qs = T.

  Lemma good_init : good t0 (zeros bs).
  Proof. exists []. split; reflexivity. Qed.

  (* a tweak of length 0 is rejected and leaves T in force *)
  Lemma good_set t T w : good t T -> length w <= bs -> (length w = 0 -> T = pad_to bs w) ->
    good (snd (set_tweak t (Some w) (N.of_nat (length w)))) (pad_to bs w).
  Proof.
    intros (qs & -> & <-) Hw H0. exists (qs ++ [(Some w, N.of_nat (length w))]).
    rewrite fold_left_app, latest_tweak_snoc by exact Hw. split; [reflexivity|].
    destruct (Nat.eqb_spec (length w) 0) as [E0|_]; [now apply H0|reflexivity].
  Qed.
End Good.

Section TweakTool.
  Variable bs : nat.
  Variable K TK : Type.
  Variable zero_tk : TK.
  Variable tk_ks_of : TK -> K.
  Variable set_tweaked : TK -> buf -> N -> N * TK.
  Variable set_tweak : TK -> buf -> N -> N * TK.
  Variable enc dec : K -> list byte -> list byte.
  (* the specification's tweakable cipher under the fixed key *)
  Variable Fenc Fdec : list byte -> list byte -> list byte.
  Variable key : list byte.
  Hypothesis Hbs : 0 < bs.
  Hypothesis Hchunk : 1024 mod bs = 0.

  Notation good := (good bs TK set_tweak (snd (set_tweaked zero_tk (Some key) (N.of_nat (length key))))).
  Notation tw_all := (tw_all bs Fenc Fdec).
  Hypothesis good_crypt : forall t T blk, good t T -> length blk = bs ->
    enc (tk_ks_of t) blk = Fenc T blk /\ dec (tk_ks_of t) blk = Fdec T blk.

  (* w is the tool's tweak variable when i blocks have been processed *)
  Definition twinv (tw0 : list byte) (t : TK) (w : list byte) (i : nat) : Prop :=
    good t (pad_to bs w) /\ w = ctr_add tw0 (N.of_nat i).

  Lemma twinv_next tw0 t w i : length tw0 <= bs -> twinv tw0 t w i ->
    let w' := inc_counter w 1 in
    twinv tw0 (snd (set_tweak t (Some w') (N.of_nat (length w')))) w' (S i).
  Proof.
    intros Hl [Hg ->] w'.
    assert (Hw' : w' = ctr_add tw0 (N.of_nat (S i))).
    { subst w'. rewrite inc_counter_is_add, ctr_add_add. f_equal. lia. }
    split; [|exact Hw']. eapply good_set; [exact Hg| |]; rewrite Hw', ctr_add_length.
    - exact Hl.
    - intros ->%length_zero_iff_nil. reflexivity.
  Qed.

  Lemma tweak_blocks_spec tw0 d : length tw0 <= bs -> forall fuel t w data i,
    twinv tw0 t w i -> length data <= fuel ->
    exists t' w', tweak_blocks bs K TK tk_ks_of set_tweak enc dec fuel d t w data
                  = (tw_all tw0 d i data, t', w')
      /\ twinv tw0 t' w' (i + length data / bs).
  Proof.
    intros Hl.
    induction fuel as [|fuel IH]; intros t w data i HI Hf; cbn [tweak_blocks];
      [|destruct (Nat.leb_spec bs (length data)) as [Hge|Hlt]].
    (* less than a block is left: nothing is written, nothing changes *)
    1, 3: exists t, w; rewrite tw_all_short, Nat.div_small, Nat.add_0_r by lia; now split.
    - destruct (IH _ _ (skipn bs data) (S i) (twinv_next tw0 t w i Hl HI))
        as (t' & w' & -> & HI'); [rewrite skipn_length; lia|].
      exists t', w'. rewrite (div_skipn bs data Hbs Hge), Nat.add_succ_r. split; [|exact HI'].
      rewrite (tw_all_step bs Fenc Fdec Hbs tw0 d i data Hge).
      destruct HI as [Hg <-].
      destruct (good_crypt t _ (firstn bs data) Hg) as [He Hd]; [rewrite firstn_length; lia|].
      unfold twF. destruct d; [rewrite Hd|rewrite He]; reflexivity.
  Qed.

  Lemma tweak_fold_spec tw0 d : length tw0 <= bs -> forall cs out t w i, twinv tw0 t w i ->
    exists t' w',
      fold_left (fun acc c =>
                   let '(out, t, w) := acc in
                   let '(o, t', w') := tweak_blocks bs K TK tk_ks_of set_tweak enc dec
                                         (length c) d t w c in
                   (out ++ o, t', w')) cs (out, t, w)
      = (out ++ concat (indexed bs (tw_all tw0 d) i cs), t', w').
  Proof.
    intros Hl. induction cs as [|c cs IH]; intros out t w i HI; cbn [fold_left indexed concat].
    - exists t, w. now rewrite app_nil_r.
    - destruct (tweak_blocks_spec tw0 d Hl (length c) t w c i HI (le_n _))
        as (t1 & w1 & -> & HI1).
      destruct (IH (out ++ tw_all tw0 d i c) t1 w1 _ HI1) as (t2 & w2 & ->).
      exists t2, w2. now rewrite app_assoc.
  Qed.

  Notation tool := (tool_tweak bs K TK zero_tk tk_ks_of set_tweaked set_tweak enc dec).

  Theorem tool_tweak_spec_gen : forall decrypt tw file, opts_ok bs true key tw = true ->
    tool decrypt key tw file = Some (tw_all (opt_block bs tw) decrypt 0 file).
  Proof.
    intros decrypt tw file Hok. destruct (opts_ok_true _ _ _ _ Hok) as [_ Hl].
    unfold tool_tweak. rewrite Hok. apply f_equal.
    set (tw0 := opt_block bs tw) in *.
    set (t0 := snd (set_tweaked zero_tk (Some key) (N.of_nat (length key)))).
    assert (HI : twinv tw0 (snd (set_tweak t0 (Some tw0) (N.of_nat (length tw0)))) tw0 0).
    { split; [|symmetry; apply ctr_add_0].
      eapply good_set; [apply good_init|exact Hl|].
      intros ->%length_zero_iff_nil. symmetry. apply pad_to_nil. }
    destruct (tweak_fold_spec tw0 decrypt Hl (io_chunks file) [] _ _ 0 HI) as (t' & w' & ->).
    cbn [fst app]. rewrite io_chunks_blocks.
    apply (chunks_invisible bs 1024 Hbs (Nat.lt_0_succ _) Hchunk (tw_all tw0 decrypt)
             (fun i => tw_all_short bs Fenc Fdec tw0 decrypt i [] Hbs)
             (fun k c r i => tw_all_app bs Fenc Fdec Hbs tw0 decrypt k c r i)).
  Qed.
End TweakTool.

(* the schedule skinny-tweak keys, under any history of tweak changes, computes the specification's
   tweakable cipher for the zero-padded key and the latest tweak (C10 padding, C04) *)
Lemma good128_crypt (key : list byte) : 16 <= length key <= 32 ->
  let zk := (length key + 15) / 16 in let pk := pad_to (16 * zk) key in
  forall t T blk,
    good 16 tks128 m128_set_tweak
         (snd (m128_set_tweaked_key zero_tks128 (Some key) (N.of_nat (length key)))) t T ->
    length blk = 16 ->
    m128_encrypt (tk_ks byte t) blk = skinny128_tweaked_enc zk pk T blk
    /\ m128_decrypt (tk_ks byte t) blk = skinny128_tweaked_dec zk pk T blk.
Proof.
  intros Hk zk pk t T blk (qs & -> & <-) Hb.
  rewrite (m128_set_tweaked_key_padding zero_tks128 key (length key) Hk eq_refl).
  pose proof (c04_tweak_history128 zk zero_tks128 pk qs (ceil_in12 15 _ Hk)
                (pad_to_length _ _) (repeat_length _ _)) as H.
  cbv zeta in H. destruct H as (Hret & Htweak & Hrounds & Hcrypt & Hnext). exact (Hcrypt blk Hb).
Qed.
Lemma good64_crypt (key : list byte) : 8 <= length key <= 16 ->
  let zk := (length key + 7) / 8 in let pk := pad_to (8 * zk) key in
  forall t T blk,
    good 8 tks64 m64_set_tweak
         (snd (m64_set_tweaked_key zero_tks64 (Some key) (N.of_nat (length key)))) t T ->
    length blk = 8 ->
    m64_encrypt (tk_ks nib t) blk = skinny64_tweaked_enc zk pk T blk
    /\ m64_decrypt (tk_ks nib t) blk = skinny64_tweaked_dec zk pk T blk.
Proof.
  intros Hk zk pk t T blk (qs & -> & <-) Hb.
  rewrite (m64_set_tweaked_key_padding zero_tks64 key (length key) Hk eq_refl).
  pose proof (c04_tweak_history64 zk zero_tks64 pk qs (ceil_in12 7 _ Hk)
                (pad_to_length _ _) (repeat_length _ _)) as H.
  cbv zeta in H. destruct H as (Hret & Htweak & Hrounds & Hcrypt & Hnext). exact (Hcrypt blk Hb).
Qed.

Theorem tool_tweak128_spec : forall decrypt key tw file, opts_ok 16 true key tw = true ->
  let zk := (length key + 15) / 16 in let pk := pad_to (16 * zk) key in
  let tw0 := opt_block 16 tw in
  tool_tweak128 decrypt key tw file
  = Some (concat (map (fun ib => (if decrypt then skinny128_tweaked_dec else skinny128_tweaked_enc) zk pk
                                    (pad_to 16 (ctr_add tw0 (N.of_nat (fst ib)))) (snd ib))
                      (combine (seq 0 (length file / 16)) (blocks 16 (whole_blocks 16 file))))).
Proof.
  intros decrypt key tw file Hok zk pk tw0. unfold tool_tweak128.
  rewrite tool_tweak_spec_gen
    with (Fenc := skinny128_tweaked_enc zk pk) (Fdec := skinny128_tweaked_dec zk pk);
    [destruct decrypt; reflexivity | apply Nat.lt_0_succ | reflexivity
    | exact (good128_crypt key (proj1 (opts_ok_true 16 true key tw Hok))) | exact Hok].
Qed.

Theorem tool_tweak128_invalid : forall d key tw file, opts_ok 16 true key tw = false ->
  tool_tweak128 d key tw file = None.
Proof. intros d key tw file H. unfold tool_tweak128, tool_tweak. now rewrite H. Qed.

Theorem tool_tweak128_roundtrip : forall key tw file out, tool_tweak128 false key tw file = Some out ->
  tool_tweak128 true key tw out = Some (whole_blocks 16 file).
Proof.
  intros key tw file out H. pose proof (if_Some_true _ _ _ H) as Hok.
  rewrite (tool_tweak128_spec false key tw file Hok) in H. injection H as <-.
  rewrite (tool_tweak128_spec true key tw _ Hok). cbv zeta. apply f_equal.
  apply (tw_all_roundtrip 16 _ _ (Nat.lt_0_succ _)).
  - intros T b. apply store128_length.
  - apply skinny128_tweaked_dec_enc.
Qed.

Theorem tool_tweak64_spec : forall decrypt key tw file, opts_ok 8 true key tw = true ->
  let zk := (length key + 7) / 8 in let pk := pad_to (8 * zk) key in
  let tw0 := opt_block 8 tw in
  tool_tweak64 decrypt key tw file
  = Some (concat (map (fun ib => (if decrypt then skinny64_tweaked_dec else skinny64_tweaked_enc) zk pk
                                    (pad_to 8 (ctr_add tw0 (N.of_nat (fst ib)))) (snd ib))
                      (combine (seq 0 (length file / 8)) (blocks 8 (whole_blocks 8 file))))).
Proof.
  intros decrypt key tw file Hok zk pk tw0. unfold tool_tweak64.
  rewrite tool_tweak_spec_gen
    with (Fenc := skinny64_tweaked_enc zk pk) (Fdec := skinny64_tweaked_dec zk pk);
    [destruct decrypt; reflexivity | apply Nat.lt_0_succ | reflexivity
    | exact (good64_crypt key (proj1 (opts_ok_true 8 true key tw Hok))) | exact Hok].
Qed.

Theorem tool_tweak64_invalid : forall d key tw file, opts_ok 8 true key tw = false ->
  tool_tweak64 d key tw file = None.
Proof. intros d key tw file H. unfold tool_tweak64, tool_tweak. now rewrite H. Qed.

Theorem tool_tweak64_roundtrip : forall key tw file out, tool_tweak64 false key tw file = Some out ->
  tool_tweak64 true key tw out = Some (whole_blocks 8 file).
Proof.
  intros key tw file out H. pose proof (if_Some_true _ _ _ H) as Hok.
  rewrite (tool_tweak64_spec false key tw file Hok) in H. injection H as <-.
  rewrite (tool_tweak64_spec true key tw _ Hok). cbv zeta. apply f_equal.
  apply (tw_all_roundtrip 8 _ _ (Nat.lt_0_succ _)).
  - intros T b. apply store64_length.
  - apply skinny64_tweaked_dec_enc.
Qed.

Print Assumptions io_chunks_concat.
Print Assumptions tool_ctr128_spec.
Print Assumptions tool_ctr128_length.
Print Assumptions tool_ctr128_involution.
Print Assumptions tool_ctr128_backend_independent.
Print Assumptions tool_ctr128_invalid.
Print Assumptions tool_ctr64_spec.
Print Assumptions tool_ctr64_length.
Print Assumptions tool_ctr64_involution.
Print Assumptions tool_ctr64_backend_independent.
Print Assumptions tool_ctr64_invalid.
Print Assumptions tool_ecb128_spec.
Print Assumptions tool_ecb128_roundtrip.
Print Assumptions tool_ecb128_invalid.
Print Assumptions tool_ecb64_spec.
Print Assumptions tool_ecb64_roundtrip.
Print Assumptions tool_ecb64_invalid.
Print Assumptions tool_tweak128_spec.
Print Assumptions tool_tweak128_roundtrip.
Print Assumptions tool_tweak128_invalid.
Print Assumptions tool_tweak64_spec.
Print Assumptions tool_tweak64_roundtrip.
Print Assumptions tool_tweak64_invalid.
