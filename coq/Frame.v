(* Frame.v — a frame theorem for the straight-line IR: a program that only READS region r, and only inside the
   window [a, a+len), behaves on the whole memory as its relocated copy behaves on the memory whose region r is
   cut down to that window.  Used to check the round segments of a whole block function on a small symbolic
   memory (one schedule slot instead of the whole key schedule), see SIRCheck.check_block_w. *)
From Coq Require Import List Bool Arith Lia.
From Skinny Require Import ListFacts IR IRCheck.
Import ListNotations.

Section Frame.
  Variable B : Type.
  Variables (bx ba : B -> B -> B) (b0 b1 : B).
  Variable callf : nat -> list B -> list B.
  Variables (r a len : nat).
  Notation eval' := (eval B bx ba b0 b1 callf).
  Notation exec' := (exec B bx ba b0 b1 callf).
  Notation exec1' := (exec1 B bx ba b0 b1 callf).

  Definition window (m : mem B) : mem B := set_nth r (firstn len (skipn a (nth r m []))) m.
  (* put region r of [m0] back *)
  Definition unwindow (m0 m : mem B) : mem B := set_nth r (nth r m0 []) m.

  Fixpoint reloc_e (e : expr) : option expr :=
    match e with
    | EConst _ _ | ELocal _ => Some e
    | ELoad r' off n =>
        if Nat.eqb r' r
        then (if (Nat.leb a off && Nat.leb (off + n) (a + len))%bool then Some (ELoad r (off - a) n) else None)
        else Some e
    | ENot x => option_map ENot (reloc_e x)
    | EBin o x y => match reloc_e x, reloc_e y with Some x', Some y' => Some (EBin o x' y') | _, _ => None end
    | EShl lw x k => option_map (fun x' => EShl lw x' k) (reloc_e x)
    | EShrL lw x k => option_map (fun x' => EShrL lw x' k) (reloc_e x)
    | EShrA lw x k => option_map (fun x' => EShrA lw x' k) (reloc_e x)
    | ESlice x lo w => option_map (fun x' => ESlice x' lo w) (reloc_e x)
    | EConcat l =>
        option_map EConcat
          ((fix go (l : list expr) : option (list expr) :=
              match l with
              | [] => Some []
              | x :: l' => match reloc_e x, go l' with Some x', Some l'' => Some (x' :: l'') | _, _ => None end
              end) l)
    | EZext w x => option_map (EZext w) (reloc_e x)
    | ESext w x => option_map (ESext w) (reloc_e x)
    | ECall f x => option_map (ECall f) (reloc_e x)
    | EAdd x y => match reloc_e x, reloc_e y with Some x', Some y' => Some (EAdd x' y') | _, _ => None end
    end.

  Definition reloc_s (s : stmt) : option stmt :=
    match s with
    | SLocal x e => option_map (SLocal x) (reloc_e e)
    | SStore r' off n e => if Nat.eqb r' r then None else option_map (SStore r' off n) (reloc_e e)
    end.
  Fixpoint reloc (p : list stmt) : option (list stmt) :=
    match p with
    | [] => Some []
    | s :: p' => match reloc_s s, reloc p' with Some s', Some p'' => Some (s' :: p'') | _, _ => None end
    end.

  Lemma load_window : forall m off n, r < length m -> a <= off -> off + n <= a + len ->
    load B b0 (window m) r (off - a) n = load B b0 m r off n.
  Proof.
    intros m off n Hr Ha Hn. unfold load. f_equal. apply map_ext_in. intros i Hi.
    apply in_seq in Hi. f_equal. unfold window. rewrite nth_set_nth_eq by exact Hr.
    rewrite nth_firstn_lt by lia. rewrite nth_skipn'. f_equal. lia.
  Qed.
  Lemma load_window_other : forall m r' off n, r' <> r -> load B b0 (window m) r' off n = load B b0 m r' off n.
  Proof.
    intros m r' off n H. unfold load, window. rewrite nth_set_nth_ne by congruence. reflexivity.
  Qed.

  Lemma eval_reloc : forall m loc, r < length m -> forall e e', reloc_e e = Some e' ->
    eval' (window m) loc e' = eval' m loc e.
  Proof.
    intros m loc Hr e. induction e using expr_ind2; intros e' He; cbn [reloc_e] in He;
      (* the constructors with one or two subexpressions *)
      try (destruct (reloc_e e) as [x'|]; [|discriminate]; inversion He; cbn [eval]; rewrite (IHe x' eq_refl); reflexivity);
      try (destruct (reloc_e e1) as [x'|]; [|discriminate]; destruct (reloc_e e2) as [y'|]; [|discriminate];
           inversion He; cbn [eval]; rewrite (IHe1 x' eq_refl), (IHe2 y' eq_refl); reflexivity).
    1, 2: inversion He; reflexivity.
    - destruct (Nat.eqb r0 r) eqn:E.
      + apply Nat.eqb_eq in E. subst r0.
        destruct (Nat.leb a off && Nat.leb (off + n) (a + len))%bool eqn:E2; [|discriminate].
        apply andb_true_iff in E2 as [E2%Nat.leb_le E3%Nat.leb_le].
        inversion He. cbn [eval]. apply load_window; assumption.
      + apply Nat.eqb_neq in E. inversion He. cbn [eval]. apply load_window_other. exact E.
    - match type of He with context [option_map EConcat ?g] => destruct g as [l''|] eqn:El end; [|discriminate].
      inversion He. cbn [eval]. f_equal. clear He H1 e'. revert l'' El.
      induction H as [|x l Hx Hl IHl]; intros l'' El.
      + inversion El. reflexivity.
      + destruct (reloc_e x) as [x'|] eqn:Ex; [|discriminate].
        match type of El with context [match ?g with _ => _ end] => destruct g as [l3|] eqn:El3 end; [|discriminate].
        inversion El. cbn [map]. rewrite (Hx x' eq_refl), (IHl l3 eq_refl). reflexivity.
  Qed.

  Lemma store_window : forall m r' off n v, r' <> r ->
    store B b0 (window m) r' off n v = window (store B b0 m r' off n v).
  Proof.
    intros m r' off n v H. unfold store, window.
    rewrite (nth_set_nth_ne r r') by congruence.
    rewrite (nth_set_nth_ne r' r) by congruence.
    apply set_nth_comm. exact H.
  Qed.

  Lemma exec1_reloc : forall m loc s s', r < length m -> reloc_s s = Some s' ->
    exec1' (window m, loc) s' = (window (fst (exec1' (m, loc) s)), snd (exec1' (m, loc) s))
    /\ length (fst (exec1' (m, loc) s)) = length m
    /\ nth r (fst (exec1' (m, loc) s)) [] = nth r m [].
  Proof.
    intros m loc s s' Hr Hs. destruct s as [x e | r' off n e]; cbn [reloc_s] in Hs.
    - destruct (reloc_e e) as [e'|] eqn:E; [|discriminate]. inversion Hs. cbn [exec1 fst snd].
      rewrite (eval_reloc m loc Hr e e' E). repeat split.
    - destruct (Nat.eqb r' r) eqn:Er; [discriminate|]. apply Nat.eqb_neq in Er.
      destruct (reloc_e e) as [e'|] eqn:E; [|discriminate]. inversion Hs. cbn [exec1 fst snd].
      rewrite (eval_reloc m loc Hr e e' E), store_window by exact Er. unfold store.
      repeat split; [apply set_nth_length | apply nth_set_nth_ne, Er].
  Qed.

  Theorem exec_by_window : forall p p' m loc, r < length m -> reloc p = Some p' ->
    fst (exec' p (m, loc)) = unwindow m (fst (exec' p' (window m, loc))).
  Proof.
    induction p as [|s p IH]; intros p' m loc Hr Hp; cbn [reloc] in Hp.
    - inversion Hp. unfold unwindow, window. cbn [exec fold_left fst]. rewrite set_nth_set_nth. symmetry. apply set_nth_same.
    - destruct (reloc_s s) as [s'|] eqn:Es; [|discriminate]. destruct (reloc p) as [p''|] eqn:Ep; [|discriminate].
      inversion Hp. unfold exec. cbn [fold_left].
      destruct (exec1_reloc m loc s s' Hr Es) as [H1 [H2 H3]]. rewrite H1.
      destruct (exec1' (m, loc) s) as [m1 loc1]. cbn [fst snd] in H2, H3.
      unfold unwindow. rewrite <- H3. apply (IH p'' m1 loc1); [lia | reflexivity].
  Qed.
End Frame.
