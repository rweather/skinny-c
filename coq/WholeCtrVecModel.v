(* WholeCtrVecModel.v — the SIMD CTR specification program of WholeCtrVec.v on the byte image of a model CTR state with L
   counter lanes (stored row-sliced), with the procedure call interpreted as "E on every lane", IS ModelCtr.crypt_loop at
   batch size L: same output bytes, same lanes, same buffered key stream, same offset.
   The loop is WholeCtrModel.gmicro_model; what is proved here is its step facts on the row-sliced counter area, for every
   layout of nr rows of rw bytes with at most 8 lanes; (L, rw, bs) = (4, 4, 16), (8, 4, 16), (8, 2, 8) are those of the C code. *)
From Coq Require Import List Bool NArith Arith Lia.
From Skinny Require Import ListFacts Bits ProofsCtr IR SIR Anf IRCheck KernelSpecs KernelHom2 SIRProofs ModelCtr WholeBridge WholeKey
                           WholeProc WholeCtr WholeCtrModel WholeCtrVec.
Import ListNotations.

(* k <= 8: no back end has more than 8 lanes; inc_bits_spec only needs k + 255 < 65536, the 16-bit carry word *)
Theorem incK_spec : forall (k : N) (cnt : list byte), (k <= 8)%N ->
  incK bool xorb andb false true k (bitsB cnt) = bitsB (inc_counter cnt k).
Proof. intros k cnt Hk. apply inc_bits_spec. lia. Qed.

Section Loop.
  Variables (bs L rw kn coff eoff ooff fno : nat).
  Variable cB : nat -> list bool -> list bool.
  Variable E : list byte -> list byte.
  Variable inp : list byte.
  Variable IMG : list (list bool) -> list (list byte) -> list byte -> nat -> mem bool.
  Hypothesis Hbs : 0 < bs.
  Hypothesis HL : 0 < L.
  Let BSZ := L * bs.
  Definition lanes_ok (lanes : list (list byte)) : Prop := length lanes = L /\ Forall (fun l => length l = bs) lanes.
  Hypothesis HE : forall blk, length blk = bs -> length (E blk) = bs.
  Hypothesis Sproc : forall O lanes ecnt off, lanes_ok lanes -> length ecnt = BSZ ->
    entry_sem cB (Some [vstmt bs L kn coff eoff fno], ident bool) (IMG O lanes ecnt off) = IMG O lanes (concat (map E lanes)) off.
  Hypothesis Sincs : forall O lanes ecnt off, lanes_ok lanes -> length ecnt = BSZ ->
    mixed_sem cB (inc_entries bool xorb andb false true bs L rw coff) (IMG O lanes ecnt off)
    = IMG O (map (fun l => inc_counter l (N.of_nat L)) lanes) ecnt off.
  Hypothesis Sxor : forall O lanes ecnt off pos o n, lanes_ok lanes -> length ecnt = BSZ -> o + n <= BSZ ->
    s_xor bool xorb pos (eoff + o) n (IMG O lanes ecnt off)
    = IMG (spl O pos (bitsB (xor_bytes (slice inp pos n) (slice ecnt o n)))) lanes ecnt off.
  Hypothesis Soff : forall O lanes ecnt off v, lanes_ok lanes -> length ecnt = BSZ ->
    s_setoff bool false true ooff v (IMG O lanes ecnt off) = IMG O lanes ecnt v.

  Notation st lanes ecnt off := {| c_key := tt; c_lanes := lanes; c_ecounter := ecnt; c_off := off |}.
  Notation loop := (crypt_loop unit (fun _ => E) bs L).
  Notation spec := (vmicroB bs L rw kn coff eoff ooff fno).

  Lemma lanes_ok_inc : forall lanes k, lanes_ok lanes -> lanes_ok (map (fun l => inc_counter l k) lanes).
  Proof.
    intros lanes k [H1 H2]. split; [rewrite map_length; exact H1|].
    apply Forall_map. revert H2. apply Forall_impl. intros l Hl. rewrite inc_counter_length. exact Hl.
  Qed.
  Lemma concat_E_length : forall lanes, lanes_ok lanes -> length (concat (map E lanes)) = BSZ.
  Proof.
    intros lanes [H1 H2]. unfold BSZ. rewrite <- H1. clear H1. induction H2 as [|l lanes Hl _ IH]; [reflexivity|].
    cbn [map concat length]. rewrite app_length, HE, IH by exact Hl. reflexivity.
  Qed.

  Theorem vmicro_model : forall fuel off size pos O lanes ecnt c' outb,
    lanes_ok lanes -> length ecnt = BSZ -> off <= BSZ -> pos + size = length inp -> length O = length inp ->
    loop fuel (st lanes ecnt off) (skipn pos inp) = Some (c', outb) ->
    exists lanes' ecnt', c_lanes c' = lanes' /\ c_ecounter c' = ecnt' /\ lanes_ok lanes' /\ length ecnt' = BSZ /\
      length outb = size /\
      mixed_sem cB (spec fuel off size pos) (IMG O lanes ecnt off) = IMG (spl O pos (bitsB outb)) lanes' ecnt' (c_off c').
  Proof using Hbs HL HE Sproc Sincs Sxor Soff. (* the statement names Hbs and HL although the argument does not need them *)
    intros fuel off size pos O lanes ecnt c' outb Hc He Hoff Hps HO Hl. rewrite vmicro_gmicro.
    destruct (gmicro_model bs L BSZ eoff ooff (vstmt bs L kn coff eoff fno) (inc_entries bool xorb andb false true bs L rw coff)
                cB E inp lanes_ok IMG eq_refl (fun l => lanes_ok_inc l _) concat_E_length Sproc Sincs Sxor Soff
                fuel off size pos O lanes ecnt c' outb Hc He Hoff Hps HO Hl) as (K3 & K4 & KL & K5).
    exists (c_lanes c'), (c_ecounter c'). auto 7.
  Qed.
End Loop.
Print Assumptions incK_spec.
Print Assumptions vmicro_model.

Section TRdef.
  Variables (bs L rw : nat).
  Definition cpos0 (c k : nat) : nat := (k / rw) * (rw * L) + rw * c + k mod rw.
  Definition cidx (p : nat) : nat := (p mod (rw * L)) / rw.
  Definition kidx (p : nat) : nat := (p / (rw * L)) * rw + (p mod (rw * L)) mod rw.
  (* the L*bs bytes of the counter area: byte k of lane c at cpos0 c k *)
  Definition TR (lanes : list (list byte)) : list (list bool) :=
    map (fun p => nth (kidx p) (bitsB (nth (cidx p) lanes [])) []) (seq 0 (L * bs)).
  Lemma TR_length : forall lanes, length (TR lanes) = L * bs.
  Proof. intros. unfold TR. rewrite map_length, seq_length. reflexivity. Qed.
End TRdef.

Lemma cpos_split : forall L rw coff c k, cpos L rw coff c k = coff + cpos0 L rw c k.
Proof. intros. unfold cpos, cpos0. lia. Qed.

Lemma gather_app : forall bs L rw (KS X : list (list bool)) c,
  gather bool bs L rw (length KS) c (KS ++ X) = map (fun k => nth (cpos0 L rw c k) X []) (seq 0 bs).
Proof.
  intros. unfold gather. apply map_ext. intros k. rewrite cpos_split. apply app_nth2_plus.
Qed.
Lemma scatter_app : forall bs L rw (KS X blk : list (list bool)) c,
  scatter bool bs L rw (length KS) c blk (KS ++ X)
  = KS ++ fold_left (fun acc k => set_nth (cpos0 L rw c k) (nth k blk []) acc) (seq 0 bs) X.
Proof.
  intros bs L rw KS X blk c. unfold scatter. generalize (seq 0 bs) as ks. intros ks. revert X.
  induction ks as [|k ks IH]; intros X; [reflexivity|]. cbn [fold_left]. rewrite cpos_split, set_nth_app_r. apply IH.
Qed.

(* the image of a model state: the counter area CA (stepv_* of WholeCtrModel.v are about this list) *)
Section OnImageV.
  Variables (I CO KS pad : list (list bool)).
  Definition imgv (O CA : list (list bool)) (ecnt : list byte) (off : nat) : mem bool :=
    [O; I; CO; KS ++ CA ++ bitsB ecnt ++ rbytes off ++ pad].
End OnImageV.

(* cpos0 and (cidx, kidx) are inverse to each other: position <-> (lane, byte) in a counter area of nr rows of rw bytes *)
Section Positions.
  Variables (L rw : nat).
  Hypothesis Hrw : 0 < rw.
  Hypothesis HL : 0 < L.

  Lemma cpos0_divmod : forall c k, c < L ->
    cpos0 L rw c k / (rw * L) = k / rw /\ cpos0 L rw c k mod (rw * L) = rw * c + k mod rw.
  Proof.
    intros c k Hc. pose proof (Nat.mod_upper_bound k rw ltac:(lia)) as Hr.
    apply (Nat.div_mod_unique (rw * L)).
    - apply Nat.mod_upper_bound. nia.
    - nia.
    - rewrite <- Nat.div_mod by nia. unfold cpos0. lia.
  Qed.
  Lemma cidx_cpos0 : forall c k, c < L -> cidx L rw (cpos0 L rw c k) = c.
  Proof.
    intros c k Hc. unfold cidx. rewrite (proj2 (cpos0_divmod c k Hc)).
    rewrite Nat.mul_comm, Nat.div_add_l, Nat.div_small by (lia || apply Nat.mod_upper_bound; lia). lia.
  Qed.
  Lemma kidx_cpos0 : forall c k, c < L -> kidx L rw (cpos0 L rw c k) = k.
  Proof.
    intros c k Hc. unfold kidx. destruct (cpos0_divmod c k Hc) as [-> ->].
    rewrite (Nat.add_comm (rw * c)), (Nat.mul_comm rw c), Nat.mod_add, Nat.mod_mod by lia.
    pose proof (Nat.div_mod k rw). lia.
  Qed.
  Lemma cpos0_idx : forall p, cpos0 L rw (cidx L rw p) (kidx L rw p) = p.
  Proof.
    intros p. unfold cpos0, cidx, kidx.
    set (q := p / (rw * L)). set (r := p mod (rw * L)).
    rewrite Nat.div_add_l, Nat.div_small, Nat.add_0_r by (lia || apply Nat.mod_upper_bound; lia).
    rewrite (Nat.add_comm (q * rw)), Nat.mod_add, Nat.mod_mod by lia.
    pose proof (Nat.div_mod r rw). pose proof (Nat.div_mod p (rw * L)). fold q r in H0. nia.
  Qed.
  Lemma cpos0_lt : forall bs nr c k, bs = nr * rw -> c < L -> k < bs -> cpos0 L rw c k < L * bs.
  Proof.
    intros bs nr c k Hbs Hc Hk. unfold cpos0.
    assert (k / rw < nr) by (apply Nat.div_lt_upper_bound; lia).
    pose proof (Nat.mod_upper_bound k rw). subst bs. nia.
  Qed.
  Lemma cidx_lt : forall p, cidx L rw p < L.
  Proof. intros p. apply Nat.div_lt_upper_bound; [lia|]. apply Nat.mod_upper_bound. nia. Qed.
  Lemma kidx_lt : forall bs nr p, bs = nr * rw -> p < L * bs -> kidx L rw p < bs.
  Proof.
    intros bs nr p Hbs Hp. unfold kidx. assert (p / (rw * L) < nr) by (apply Nat.div_lt_upper_bound; nia).
    pose proof (Nat.mod_upper_bound (p mod (rw * L)) rw). subst bs. nia.
  Qed.
End Positions.

Section OnTR.
  Variables (bs L rw nr : nat).
  Hypothesis Hrw : 0 < rw.
  Hypothesis HL : 0 < L.
  Hypothesis Hbs : bs = nr * rw.

  Lemma TR_bytes8 : forall lanes : list (list byte), length lanes = L -> Forall (fun l => length l = bs) lanes -> bytes8 (TR bs L rw lanes).
  Proof.
    intros lanes Hl Hf. apply Forall_map, Forall_forall. intros p Hp%in_seq.
    apply (proj1 (Forall_nth _ _) (bits_len8 _)). rewrite bitsB_length, (proj1 (Forall_nth _ _) Hf) by (rewrite Hl; apply cidx_lt; assumption).
    apply (kidx_lt L rw Hrw HL bs nr); assumption || lia.
  Qed.

  Lemma gather_TR : forall KS tail (lanes : list (list byte)) c, c < L -> length (nth c lanes []) = bs ->
    gather bool bs L rw (length KS) c (KS ++ TR bs L rw lanes ++ tail) = bitsB (nth c lanes []).
  Proof.
    intros KS tail lanes c Hc Hn. rewrite gather_app, <- (map_nth_seq_all (bitsB (nth c lanes [])) []), bitsB_length, Hn.
    apply map_ext_in. intros k Hk%in_seq. pose proof (cpos0_lt L rw Hrw HL bs nr c k Hbs Hc (proj2 Hk)) as Hlt.
    rewrite app_nth1 by (rewrite TR_length; exact Hlt). unfold TR.
    rewrite nth_map_seq, cidx_cpos0, kidx_cpos0 by assumption. reflexivity.
  Qed.

  (* the first n byte writes of a scatter into lane c *)
  Lemma scatter_seq : forall {A} (F g : nat -> A) c tail n, c < L -> n <= bs ->
    fold_left (fun acc k => set_nth (cpos0 L rw c k) (g k) acc) (seq 0 n) (map F (seq 0 (L * bs)) ++ tail)
    = map (fun p => if (cidx L rw p =? c) && (kidx L rw p <? n) then g (kidx L rw p) else F p) (seq 0 (L * bs)) ++ tail.
  Proof.
    intros A F g c tail n Hc. induction n as [|n IH]; intros Hn.
    - cbn [seq fold_left]. f_equal. apply map_ext. intros p. rewrite andb_false_r. reflexivity.
    - rewrite seq_S, fold_left_app, IH by lia. cbn [fold_left plus].
      rewrite set_nth_app_l by (rewrite map_length, seq_length; apply (cpos0_lt L rw Hrw HL bs nr); assumption || lia).
      rewrite set_nth_map_seq. f_equal. apply map_ext. intros p. cbn [plus].
      destruct (Nat.eqb_spec p (cpos0 L rw c n)) as [->|Hp].
      + rewrite cidx_cpos0, kidx_cpos0, Nat.eqb_refl, (proj2 (Nat.ltb_lt n (S n))) by (assumption || lia). reflexivity.
      + destruct (Nat.eqb_spec (cidx L rw p) c) as [Ec|]; [|reflexivity]. cbn [andb].
        destruct (Nat.ltb_spec (kidx L rw p) n), (Nat.ltb_spec (kidx L rw p) (S n)); try reflexivity; try lia.
        exfalso. apply Hp. rewrite <- (cpos0_idx L rw Hrw HL p), Ec. f_equal. lia.
  Qed.

  Lemma scatter_TR : forall KS tail (lanes : list (list byte)) c (lane' : list byte), c < L -> length lanes = L ->
    scatter bool bs L rw (length KS) c (bitsB lane') (KS ++ TR bs L rw lanes ++ tail) = KS ++ TR bs L rw (set_nth c lane' lanes) ++ tail.
  Proof.
    intros KS tail lanes c lane' Hc Hl. rewrite scatter_app. f_equal. unfold TR. rewrite scatter_seq by lia. f_equal.
    apply map_ext_in. intros p Hp%in_seq.
    rewrite (proj2 (Nat.ltb_lt _ _) (kidx_lt L rw Hrw HL bs nr p Hbs (proj2 Hp))), andb_true_r.
    rewrite nth_set_nth, Hl, (proj2 (Nat.ltb_lt c L) Hc), andb_true_r. destruct (cidx L rw p =? c); reflexivity.
  Qed.
End OnTR.

Section Incs.
  Variable cB : nat -> list bool -> list bool.
  Variables (I CO KS pad : list (list bool)).

  Section Gen.
    Variables (bs L rw nr : nat).
    Hypothesis Hrw : 0 < rw.
    Hypothesis Hbs : bs = nr * rw.
    Notation vinc := (v_inc_lane bool xorb andb false true bs L rw (length KS)).

    Lemma v_inc_lane_TR : forall O done (x : list byte) todo ecnt off k,
      length done + S (length todo) = L -> length x = bs -> (k <= 8)%N ->
      vinc (length done) k (imgv I CO KS pad O (TR bs L rw (done ++ x :: todo)) ecnt off)
      = imgv I CO KS pad O (TR bs L rw (done ++ inc_counter x k :: todo)) ecnt off.
    Proof.
      intros O done x todo ecnt off k Hl Hx Hk. assert (HL : 0 < L) by lia. assert (Hd : length done < L) by lia.
      unfold imgv, v_inc_lane, mk4m, reg. cbn [nth].
      rewrite (gather_TR bs L rw nr Hrw HL Hbs), nth_middle, incK_spec, (scatter_TR bs L rw nr Hrw HL Hbs)
        by (rewrite ?nth_middle, ?app_length; cbn [length]; assumption || lia).
      rewrite <- (Nat.add_0_r (length done)), set_nth_app_r. reflexivity.
    Qed.

    (* the lanes before [todo] have been incremented already *)
    Lemma incs_from : forall O ecnt off k todo done, (k <= 8)%N ->
      length done + length todo = L -> Forall (fun l => length l = bs) todo ->
      mixed_sem cB (map (fun c => (None, vinc c k)) (seq (length done) (length todo))) (imgv I CO KS pad O (TR bs L rw (done ++ todo)) ecnt off)
      = imgv I CO KS pad O (TR bs L rw (done ++ map (fun l => inc_counter l k) todo)) ecnt off.
    Proof.
      intros O ecnt off k todo. induction todo as [|x todo IH]; intros done Hk Hl Hf; [reflexivity|].
      apply Forall_cons_iff in Hf. destruct Hf as [Hx Hf']. cbn [length seq map] in *.
      rewrite mixed_sem_cons, entry_sem_none, v_inc_lane_TR by assumption.
      specialize (IH (done ++ [inc_counter x k])). rewrite app_length, <- !app_assoc, Nat.add_1_r in IH.
      apply IH; assumption || lia.
    Qed.

    Lemma incs_gen : forall O (lanes : list (list byte)) ecnt off, (N.of_nat L <= 8)%N ->
      length lanes = L -> Forall (fun l => length l = bs) lanes ->
      mixed_sem cB (inc_entries bool xorb andb false true bs L rw (length KS)) (imgv I CO KS pad O (TR bs L rw lanes) ecnt off)
      = imgv I CO KS pad O (TR bs L rw (map (fun l => inc_counter l (N.of_nat L)) lanes)) ecnt off.
    Proof.
      intros O lanes ecnt off HL8 Hl Hf. pose proof (incs_from O ecnt off (N.of_nat L) lanes [] HL8 Hl Hf) as H.
      cbn [length app] in H. rewrite Hl in H. exact H.
    Qed.
  End Gen.

  Lemma incs_4_4_16 : forall O (lanes : list (list byte)) ecnt off, length lanes = 4 -> Forall (fun l => length l = 16) lanes ->
    mixed_sem cB (inc_entries bool xorb andb false true 16 4 4 (length KS)) (imgv I CO KS pad O (TR 16 4 4 lanes) ecnt off)
    = imgv I CO KS pad O (TR 16 4 4 (map (fun l => inc_counter l (N.of_nat 4)) lanes)) ecnt off.
  Proof. intros. apply (incs_gen 16 4 4 4); assumption || reflexivity || lia. Qed.

  Lemma incs_8_4_16 : forall O (lanes : list (list byte)) ecnt off, length lanes = 8 -> Forall (fun l => length l = 16) lanes ->
    mixed_sem cB (inc_entries bool xorb andb false true 16 8 4 (length KS)) (imgv I CO KS pad O (TR 16 8 4 lanes) ecnt off)
    = imgv I CO KS pad O (TR 16 8 4 (map (fun l => inc_counter l (N.of_nat 8)) lanes)) ecnt off.
  Proof. intros. apply (incs_gen 16 8 4 4); assumption || reflexivity || lia. Qed.

  Lemma incs_8_2_8 : forall O (lanes : list (list byte)) ecnt off, length lanes = 8 -> Forall (fun l => length l = 8) lanes ->
    mixed_sem cB (inc_entries bool xorb andb false true 8 8 2 (length KS)) (imgv I CO KS pad O (TR 8 8 2 lanes) ecnt off)
    = imgv I CO KS pad O (TR 8 8 2 (map (fun l => inc_counter l (N.of_nat 8)) lanes)) ecnt off.
  Proof. intros. apply (incs_gen 8 8 2 4); assumption || reflexivity || lia. Qed.
End Incs.

Lemma TR8_4_4_16 : forall lanes : list (list byte), length lanes = 4 -> Forall (fun l => length l = 16) lanes -> bytes8 (TR 16 4 4 lanes).
Proof. apply (TR_bytes8 16 4 4 4); lia. Qed.
Lemma TR8_8_4_16 : forall lanes : list (list byte), length lanes = 8 -> Forall (fun l => length l = 16) lanes -> bytes8 (TR 16 8 4 lanes).
Proof. apply (TR_bytes8 16 8 4 4); lia. Qed.
Lemma TR8_8_2_8 : forall lanes : list (list byte), length lanes = 8 -> Forall (fun l => length l = 8) lanes -> bytes8 (TR 8 8 2 lanes).
Proof. apply (TR_bytes8 8 8 2 4); lia. Qed.

Theorem vctr_model_gen : forall bs L rw, 0 < bs -> 0 < L ->
  (forall cB I CO KS pad O (lanes : list (list byte)) ecnt off, length lanes = L -> Forall (fun l => length l = bs) lanes ->
     mixed_sem cB (inc_entries bool xorb andb false true bs L rw (length KS)) (imgv I CO KS pad O (TR bs L rw lanes) ecnt off)
     = imgv I CO KS pad O (TR bs L rw (map (fun l => inc_counter l (N.of_nat L)) lanes)) ecnt off) ->
  (forall lanes : list (list byte), length lanes = L -> Forall (fun l => length l = bs) lanes -> bytes8 (TR bs L rw lanes)) ->
  forall fields code fuel pl sh pl' sh' c t kn coff fno off size plen,
  fields_okb fields = true ->
  flat fields fuel pl sh code = Some (pl', sh', c, t) ->
  check_proc [size; size; 16; coff + L * bs + L * bs + 4 + plen] c
    (vspec poly pxor pand pzero pone bs L rw kn coff (coff + L * bs) (coff + L * bs + L * bs) fno off size) = true ->
  forall (cB : nat -> list bool -> list bool) (E : list byte -> list byte)
         (out inp ecnt : list byte) (lanes : list (list byte)) (CO KS pad : list (list bool)),
  kn <= coff -> off <= L * bs ->
  length out = size -> length inp = size -> length lanes = L -> Forall (fun l => length l = bs) lanes -> length ecnt = L * bs ->
  length CO = 16 -> bytes8 CO -> length KS = coff -> bytes8 KS -> length pad = plen -> bytes8 pad ->
  (forall blk, length blk = bs -> length (E blk) = bs) ->
  (forall lanes' : list (list byte), length lanes' = L -> Forall (fun l => length l = bs) lanes' ->
     cB fno (concat (TR bs L rw lanes') ++ concat (firstn kn KS)) = concat (bitsB (concat (map E lanes')))) ->
  let m0 := imgv (bitsB inp) CO KS pad (bitsB out) (TR bs L rw lanes) ecnt off in
  Inv fields sh m0 ->
  forall c' outb,
  crypt unit (fun _ => E) bs L {| c_key := tt; c_lanes := lanes; c_ecounter := ecnt; c_off := off |} inp = Some (c', outb) ->
  exists st',
    interp fields cB fuel pl (m0, []) code = Some (pl', st', t) /\
    fst st' = imgv (bitsB inp) CO KS pad (bitsB outb) (TR bs L rw (c_lanes c')) (c_ecounter c') (c_off c').
Proof.
  intros bs L rw Hbs HL Hincs HTR8 fields code fuel pl sh pl' sh' c t kn coff fno off size plen Hf Hfl Hk cB E out inp ecnt lanes CO KS pad
         Hkn Hoff Ho Hi Hln Hlf He HCO HCO8 HKS HKS8 Hpad Hpad8 HE Hcb m0 HI c' outb Hcr.
  assert (HTRl : forall l, length (TR bs L rw l) = L * bs) by (intros; apply TR_length).
  assert (Hm : shaped [size; size; 16; coff + L * bs + L * bs + 4 + plen] m0)
    by (apply (ctx_shaped (L * bs) coff CO KS pad inp HKS HKS8 Hpad8); auto).
  destruct (vctr_final fields code fuel pl sh pl' sh' c t _ bs L rw kn coff (coff + L * bs) (coff + L * bs + L * bs) fno off size
              Hf Hfl Hk cB m0 Hm HI) as [Hint Hsem].
  unfold crypt in Hcr.
  destruct (vmicro_model bs L rw kn coff (coff + L * bs) (coff + L * bs + L * bs) fno cB E inp
              (fun O ls ec o => imgv (bitsB inp) CO KS pad O (TR bs L rw ls) ec o) Hbs HL HE) with
      (fuel := S (length inp)) (off := off) (size := size) (pos := 0) (O := bitsB out) (lanes := lanes) (ecnt := ecnt) (c' := c') (outb := outb)
    as (lanes' & ecnt' & K1 & K2 & K3 & K4 & KL & K5); try assumption.
  - intros O ls ec o [Hl1 Hl2] Hec.
    apply (stepv_proc (L * bs) coff CO KS pad inp HKS kn fno cB HKS8 Hpad8 Hkn); auto.
    apply (concat_E_length bs L E HE). split; assumption.
  - intros O ls ec o [Hl1 Hl2] Hec. rewrite <- HKS. apply Hincs; assumption.
  - intros O ls ec o pos oo n [Hl1 Hl2] Hec Hn. apply (stepv_xor (L * bs) coff CO KS pad inp HKS); auto.
  - intros O ls ec o v [Hl1 Hl2] Hec. apply (stepv_setoff (L * bs) coff CO KS pad inp HKS); auto.
  - split; assumption.
  - symmetry. exact Hi.
  - rewrite bitsB_length. congruence.
  - exists (execB cB c (m0, [])). split; [exact Hint|].
    rewrite Hi in K5. rewrite Hsem. unfold m0. rewrite K5, K1, K2. f_equal. apply splice_whole. rewrite !bitsB_length. congruence.
Qed.

(* the three layouts of the C code (incs_gen and TR_bytes8 discharge the two layout premises for every row-sliced layout).
   The names give (L, rw, bs): lanes, bytes per row, block size; vctr_model_gen takes them in the order bs, L, rw *)
Definition vctr_model_4_4_16 := vctr_model_gen 16 4 4 ltac:(lia) ltac:(lia) incs_4_4_16 TR8_4_4_16.
Definition vctr_model_8_4_16 := vctr_model_gen 16 8 4 ltac:(lia) ltac:(lia) incs_8_4_16 TR8_8_4_16.
Definition vctr_model_8_2_8 := vctr_model_gen 8 8 2 ltac:(lia) ltac:(lia) incs_8_2_8 TR8_8_2_8.
Print Assumptions vctr_model_4_4_16.
Print Assumptions vctr_model_8_4_16.
Print Assumptions vctr_model_8_2_8.
