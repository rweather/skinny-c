(* WholeCtrSet.v — the WHOLE *_ctr_*_set_counter functions of every CTR back end (generic, vec128, vec256; SKINNY-128, SKINNY-64,
   MANTIS) as translated into SIR.v and flattened at a public configuration (counter length, NULL or not), against

        block  := the counter bytes LEFT-padded with zeros to the block size (all zero for a NULL counter)
        lane k := block + k   (k = 0 .. L-1; big endian, byte-wise carries), stored row-sliced (WholeCtrVec.v)
        offset := L * bs      (the buffered key stream is empty)

   for ALL counter bytes and prior contents; on the image of a model state this is ModelCtr.set_counter (lanes = stagger).
   The generic back end is the layout L = 1.  Memory: 0 = the CTR object, 1 = counter, rctx = the context (2, or 3 when a local
   block buffer comes first). *)
From Coq Require Import List NArith Lia.
From Skinny Require Import ListFacts Bits IR Anf IRCheck KernelSpecs KernelSpecs2 KernelHom KernelHom2 WholeSpecs
                           ModelCipher ModelCtr ProofsCtr WholeBridge WholeKey WholeCtrVec WholeCtrVecModel.
Import ListNotations.

Section SetSpec.
  Variable B : Type.
  Variables (bx ba : B -> B -> B) (b0 b1 : B).
  Variables (bs L rw coff ooff rctx : nat).
  Notation reg := (reg B).
  (* the polymorphic counter area of a list of lanes (each a list of bytes) *)
  Definition TRP (lanes : list (list (list B))) : list (list B) :=
    map (fun p => nth (kidx L rw p) (nth (cidx L rw p) lanes []) []) (seq 0 (L * bs)).
  Definition blockP (size : nat) (null : bool) (cnt : list (list B)) : list (list B) :=
    if null then repeat (zbyte B b0) bs else repeat (zbyte B b0) (bs - size) ++ firstn size cnt.
  Definition lanesP (blk : list (list B)) : list (list (list B)) :=
    map (fun k => match k with O => blk | S _ => incK B bx ba b0 b1 (N.of_nat k) blk end) (seq 0 L).
  Definition w_set_counter (size : nat) (null : bool) (m : mem B) : mem B :=
    let ctx1 := splice B (reg m rctx) coff (TRP (lanesP (blockP size null (reg m 1)))) in
    [reg m 0; reg m 1; splice B ctx1 ooff (bytes_of B b0 4 (const_bits B b0 b1 32 (N.of_nat (L * bs))))].
End SetSpec.

Section SetHom.
  Variables B1 B2 : Type.
  Variables (bx1 ba1 : B1 -> B1 -> B1) (z1 o1 : B1).
  Variables (bx2 ba2 : B2 -> B2 -> B2) (z2 o2 : B2).
  Variable h : B1 -> B2.
  Hypothesis h_bx : forall a b, h (bx1 a b) = bx2 (h a) (h b).
  Hypothesis h_ba : forall a b, h (ba1 a b) = ba2 (h a) (h b).
  Hypothesis h_z : h z1 = z2.
  Hypothesis h_o : h o1 = o2.
  Notation hb := (map (map h)).
  Notation hm := (map (map (map h))).
  Let Hreg := reg_homG B1 B2 h.

  Lemma TRP_homG : forall bs L rw lanes, hb (TRP B1 bs L rw lanes) = TRP B2 bs L rw (map hb lanes).
  Proof.
    intros. unfold TRP. rewrite map_map. apply map_ext. intros p.
    rewrite <- (map_nth (map h) (nth (cidx L rw p) lanes []) [] (kidx L rw p)).
    rewrite <- (map_nth hb lanes [] (cidx L rw p)). reflexivity.
  Qed.
  Lemma blockP_homG : forall bs size null cnt, hb (blockP B1 z1 bs size null cnt) = blockP B2 z2 bs size null (hb cnt).
  Proof.
    intros. unfold blockP. destruct null; [apply (hb_zeros B1 B2 z1 z2 h h_z)|].
    rewrite map_app, (hb_zeros B1 B2 z1 z2 h h_z), firstn_map. reflexivity.
  Qed.
  Lemma lanesP_homG : forall L blk, map hb (lanesP B1 bx1 ba1 z1 o1 L blk) = lanesP B2 bx2 ba2 z2 o2 L (hb blk).
  Proof.
    intros. unfold lanesP. rewrite map_map. apply map_ext. intros k. destruct k; [reflexivity|].
    apply (incK_homG B1 B2 bx1 ba1 z1 o1 bx2 ba2 z2 o2 h h_bx h_ba h_z h_o).
  Qed.
  Lemma w_set_counter_homG : forall bs L rw coff ooff rctx size null m,
    hm (w_set_counter B1 bx1 ba1 z1 o1 bs L rw coff ooff rctx size null m) = w_set_counter B2 bx2 ba2 z2 o2 bs L rw coff ooff rctx size null (hm m).
  Proof.
    intros. unfold w_set_counter. cbv zeta. cbn [map]. rewrite !Hreg. f_equal. f_equal. f_equal.
    rewrite !hb_splice, TRP_homG, lanesP_homG, blockP_homG.
    rewrite (bytes_of_hom B1 B2 z1 z2 h h_z), (const_bits_hom B1 B2 z1 o1 z2 o2 h h_z h_o). reflexivity.
  Qed.
End SetHom.

Lemma w_set_counter_homU : forall bs L rw coff ooff rctx size null,
  homU (w_set_counter poly pxor pand pzero pone bs L rw coff ooff rctx size null) (w_set_counter bool xorb andb false true bs L rw coff ooff rctx size null).
Proof. intros. homU_by w_set_counter_homG. Qed.
Print Assumptions w_set_counter_homU.


Lemma blockP_model : forall bs size null (cnt : list byte),
  blockP bool false bs size null (bitsB cnt)
  = bitsB (if null then zeros bs else zeros (bs - size) ++ firstn size cnt).
Proof.
  intros bs size null cnt. unfold blockP. destruct null; [symmetry; apply bits_zeros|].
  rewrite map_app, <- bits_zeros, firstn_map. reflexivity.
Qed.

(* L <= 8 is the bound of incK_spec: the lane offsets k < L must fit the 16-bit carry word, and no back end has more lanes *)
Lemma lanesP_model : forall L (blk : list byte), L <= 8 ->
  lanesP bool xorb andb false true L (bitsB blk) = map bitsB (stagger L blk).
Proof.
  intros L blk HL. unfold lanesP, stagger. rewrite map_map. apply map_ext_in. intros k Hk. apply in_seq in Hk.
  destruct k as [|k].
  - change (N.of_nat 0) with 0%N. rewrite inc_counter_zero. reflexivity.
  - apply incK_spec. lia.
Qed.

Lemma TRP_model : forall bs L rw (lanes : list (list byte)), TRP bool bs L rw (map bitsB lanes) = TR bs L rw lanes.
Proof.
  intros. unfold TRP, TR. apply map_ext. intros p.
  f_equal. exact (map_nth bitsB lanes [] (cidx L rw p)).
Qed.

Theorem w_set_counter_model : forall bs L rw coff rctx size null (cnt ecnt : list byte) (KS CA pad : list (list bool)) (m : mem bool) off,
  L <= 8 -> size <= bs -> length KS = coff -> length CA = L * bs -> length ecnt = L * bs ->
  reg bool m 1 = bitsB cnt -> reg bool m rctx = KS ++ CA ++ bitsB ecnt ++ rbytes off ++ pad ->
  w_set_counter bool xorb andb false true bs L rw coff (coff + L * bs + L * bs) rctx size null m
  = [reg bool m 0; bitsB cnt;
     KS ++ TR bs L rw (stagger L (if null then zeros bs else zeros (bs - size) ++ firstn size cnt))
        ++ bitsB ecnt ++ rbytes (L * bs) ++ pad].
Proof.
  intros bs L rw coff rctx size null cnt ecnt KS CA pad m off HL Hs HKS HCA He H1 Hc.
  unfold w_set_counter. cbv zeta. rewrite H1, Hc. f_equal. f_equal. f_equal.
  rewrite blockP_model. rewrite lanesP_model by exact HL. rewrite TRP_model.
  fold (rbytes (L * bs)).
  rewrite (splice_mid bool KS CA _ _ coff HKS) by (rewrite TR_length; exact HCA).
  rewrite !(app_assoc (TR _ _ _ _)), !(app_assoc KS), splice_mid; [reflexivity | | rewrite !rbytes_len; reflexivity].
  rewrite !app_length, bitsB_length, TR_length, HKS, He. reflexivity.
Qed.
Print Assumptions w_set_counter_model.

(* the lanes / offset the specification writes are those of ModelCtr.set_counter *)
Theorem set_counter_is_spec : forall (K : Type) bs L (st : ctr K) (cnt : option (list byte)) size,
  size <= bs -> match cnt with Some b => size <= length b | None => True end ->
  let r := set_counter K bs L st cnt (N.of_nat size) in
  fst r = 1%N /\
  c_lanes (snd r) = stagger L (match cnt with Some b => zeros (bs - size) ++ firstn size b | None => zeros bs end) /\
  c_ecounter (snd r) = c_ecounter st /\ c_off (snd r) = L * bs /\ c_key (snd r) = c_key st.
Proof.
  intros K bs L st cnt size Hs Hc. cbv zeta. unfold set_counter.
  assert (E : N.leb (N.of_nat size) (N.of_nat bs) = true) by (apply N.leb_le; lia). rewrite E. cbn [fst snd c_lanes c_ecounter c_off c_key].
  rewrite Nat2N.id. repeat split. destruct cnt as [b|]; [unfold pad_to; rewrite firstn_app_le by exact Hc|]; reflexivity.
Qed.
Print Assumptions set_counter_is_spec.
