(* Anf.v — algebraic normal form polynomials over GF(2), the symbolic carrier of a bit for the reflective
   checkers of IRCheck.v.  A monomial is the bit mask of its variables, a polynomial the list of its monomials
   (kept strictly increasing by the operations, but NO lemma below depends on that: the evaluation lemmas hold
   for arbitrary lists, so soundness of the checkers never relies on normal forms, only completeness does). *)
From Coq Require Import List Bool NArith Lia.
Import ListNotations.

Definition mono := N.
Definition poly := list mono.
Definition pzero : poly := [].
Definition pone : poly := [0%N].
Definition pvar (i : nat) : poly := [N.shiftl 1 (N.of_nat i)].

(* symmetric difference of two sorted lists, by merging *)
Fixpoint pxor (a : poly) : poly -> poly :=
  match a with
  | [] => fun b => b
  | x :: a' =>
      fix aux (b : poly) : poly :=
        match b with
        | [] => a
        | y :: b' =>
            match N.compare x y with
            | Eq => pxor a' b'
            | Lt => x :: pxor a' b
            | Gt => y :: aux b'
            end
        end
  end.

Lemma pxor_nil_l : forall b, pxor [] b = b.
Proof. reflexivity. Qed.
Lemma pxor_nil_r : forall a, pxor a [] = a.
Proof. destruct a; reflexivity. Qed.
Lemma pxor_cons : forall x a y b,
  pxor (x :: a) (y :: b) =
  match N.compare x y with
  | Eq => pxor a b
  | Lt => x :: pxor a (y :: b)
  | Gt => y :: pxor (x :: a) b
  end.
Proof. reflexivity. Qed.

(* xor of a list of polynomials by a balanced tree of merges *)
Fixpoint merge_pairs (l : list poly) : list poly :=
  match l with
  | a :: b :: l' => pxor a b :: merge_pairs l'
  | _ => l
  end.
Fixpoint merge_all (fuel : nat) (l : list poly) : poly :=
  match fuel with
  | O => fold_right pxor [] l
  | S f => match l with
           | [] => []
           | [a] => a
           | _ => merge_all f (merge_pairs l)
           end
  end.
(* sort and cancel duplicates *)
Definition pnorm (l : list mono) : poly := merge_all (length l) (map (fun m => [m]) l).
(* multiply by one monomial *)
Definition pmul1 (m : mono) (b : poly) : poly :=
  match m with
  | N0 => b
  | _ => pnorm (map (N.lor m) b)
  end.
Definition pand (a b : poly) : poly :=
  match a, b with
  | [], _ => []
  | _, [] => []
  | _, _ => merge_all (length a) (map (fun m => pmul1 m b) a)
  end.

Definition assignment := nat -> bool.

Fixpoint meval_pos (rho : assignment) (i : nat) (p : positive) : bool :=
  match p with
  | xH => rho i
  | xO p' => meval_pos rho (S i) p'
  | xI p' => rho i && meval_pos rho (S i) p'
  end.
Definition meval (rho : assignment) (m : mono) : bool :=
  match m with
  | N0 => true
  | Npos p => meval_pos rho 0 p
  end.
Fixpoint peval (rho : assignment) (p : poly) : bool :=
  match p with
  | [] => false
  | m :: p' => xorb (meval rho m) (peval rho p')
  end.

Lemma peval_pzero : forall rho, peval rho pzero = false.
Proof. reflexivity. Qed.
Lemma peval_pone : forall rho, peval rho pone = true.
Proof. reflexivity. Qed.

Lemma shiftl1_pos : forall rho i,
  exists p, N.shiftl 1 (N.of_nat i) = Npos p /\ forall k, meval_pos rho k p = rho (k + i).
Proof.
  intros rho i. induction i as [|i IH].
  - exists xH. split; [reflexivity|]. intros k. simpl. f_equal. lia.
  - destruct IH as [p [Hp Hk]].
    exists (xO p). split.
    + rewrite Nat2N.inj_succ, N.shiftl_succ_r, Hp. reflexivity.
    + intros k. simpl. rewrite Hk. f_equal. lia.
Qed.

Lemma meval_pvar : forall rho i, meval rho (N.shiftl 1 (N.of_nat i)) = rho i.
Proof.
  intros rho i. destruct (shiftl1_pos rho i) as [p [Hp Hk]].
  rewrite Hp. simpl. apply Hk.
Qed.
Lemma peval_pvar : forall rho i, peval rho (pvar i) = rho i.
Proof.
  intros rho i. unfold pvar. cbn [peval]. rewrite meval_pvar. apply xorb_false_r.
Qed.

Lemma peval_pxor : forall rho a b, peval rho (pxor a b) = xorb (peval rho a) (peval rho b).
Proof.
  intros rho a. induction a as [|x a IHa]; intros b.
  - simpl. destruct (peval rho b); reflexivity.
  - induction b as [|y b IHb].
    + rewrite pxor_nil_r. cbn [peval]. rewrite xorb_false_r. reflexivity.
    + rewrite pxor_cons. destruct (N.compare_spec x y) as [E|L|G].
      * subst y. rewrite IHa. cbn [peval].
        destruct (meval rho x), (peval rho a), (peval rho b); reflexivity.
      * cbn [peval]. rewrite IHa. cbn [peval].
        destruct (meval rho x), (meval rho y), (peval rho a), (peval rho b); reflexivity.
      * cbn [peval]. rewrite IHb. cbn [peval].
        destruct (meval rho x), (meval rho y), (peval rho a), (peval rho b); reflexivity.
Qed.

Lemma meval_pos_lor : forall rho p q i,
  meval_pos rho i (Pos.lor p q) = meval_pos rho i p && meval_pos rho i q.
Proof.
  (* both sides are conjunctions of [rho i] and the values of the tails: the tail of the left side is rewritten
     by the induction hypothesis, the rest is a case split on those (at most three) booleans *)
  intros rho p. induction p as [p IH|p IH|]; intros [q|q|] i; cbn [Pos.lor meval_pos]; rewrite ?IH;
    destruct (rho i); try destruct (meval_pos rho (S i) p); try destruct (meval_pos rho (S i) q);
    reflexivity.
Qed.

Lemma meval_lor : forall rho m1 m2, meval rho (N.lor m1 m2) = andb (meval rho m1) (meval rho m2).
Proof.
  intros rho [|p] [|q]; simpl; try reflexivity.
  - symmetry. apply andb_true_r.
  - apply meval_pos_lor.
Qed.

(* xor of the values of a list of polynomials *)
Fixpoint psum_eval (rho : assignment) (l : list poly) : bool :=
  match l with
  | [] => false
  | a :: l' => xorb (peval rho a) (psum_eval rho l')
  end.

Lemma psum_eval_merge_pairs : forall rho l, psum_eval rho (merge_pairs l) = psum_eval rho l.
Proof.
  (* by the recursion of [merge_pairs] itself, two elements at a time *)
  intros rho. fix IH 1. intros [|a [|b l]]; try reflexivity.
  cbn [merge_pairs psum_eval]. rewrite peval_pxor, IH, xorb_assoc. reflexivity.
Qed.

Lemma peval_fold_pxor : forall rho l, peval rho (fold_right pxor [] l) = psum_eval rho l.
Proof.
  intros rho l. induction l as [|a l IH]; [reflexivity|].
  cbn [fold_right psum_eval]. rewrite peval_pxor, IH. reflexivity.
Qed.

Lemma peval_merge_all : forall rho fuel l, peval rho (merge_all fuel l) = psum_eval rho l.
Proof.
  intros rho fuel. induction fuel as [|f IH]; intros l.
  - apply peval_fold_pxor.
  - destruct l as [|a [|b l]].
    + reflexivity.
    + cbn [merge_all psum_eval]. rewrite xorb_false_r. reflexivity.
    + cbn [merge_all]. rewrite IH. apply psum_eval_merge_pairs.
Qed.

Lemma peval_pnorm : forall rho l, peval rho (pnorm l) = peval rho l.
Proof.
  intros rho l. unfold pnorm. rewrite peval_merge_all.
  induction l as [|m l IH]; [reflexivity|].
  cbn [map psum_eval peval]. rewrite IH, xorb_false_r. reflexivity.
Qed.

Lemma peval_map_lor : forall rho m b,
  peval rho (map (N.lor m) b) = meval rho m && peval rho b.
Proof.
  intros rho m b. induction b as [|x b IH].
  - simpl. symmetry. apply andb_false_r.
  - cbn [map peval]. rewrite IH, meval_lor.
    destruct (meval rho m), (meval rho x), (peval rho b); reflexivity.
Qed.

Lemma peval_pmul1 : forall rho m b, peval rho (pmul1 m b) = meval rho m && peval rho b.
Proof.
  intros rho m b. destruct m as [|p].
  - reflexivity.
  - unfold pmul1. rewrite peval_pnorm. apply peval_map_lor.
Qed.

Lemma psum_eval_pmul : forall rho a b,
  psum_eval rho (map (fun m => pmul1 m b) a) = peval rho a && peval rho b.
Proof.
  intros rho a b. induction a as [|x a IH]; [reflexivity|].
  cbn [map psum_eval peval]. rewrite IH, peval_pmul1.
  destruct (meval rho x), (peval rho a), (peval rho b); reflexivity.
Qed.

Lemma peval_pand : forall rho a b, peval rho (pand a b) = andb (peval rho a) (peval rho b).
Proof.
  intros rho a b. unfold pand. destruct a as [|x a]; [reflexivity|].
  destruct b as [|y b].
  - cbn [peval]. symmetry. apply andb_false_r.
  - rewrite peval_merge_all. apply psum_eval_pmul.
Qed.

Fixpoint list_eqb {A : Type} (eqb : A -> A -> bool) (a b : list A) : bool :=
  match a, b with
  | [], [] => true
  | x :: a', y :: b' => eqb x y && list_eqb eqb a' b'
  | _, _ => false
  end.
Lemma list_eqb_eq : forall {A : Type} (eqb : A -> A -> bool),
  (forall x y, eqb x y = true -> x = y) ->
  forall a b, list_eqb eqb a b = true -> a = b.
Proof.
  intros A eqb H a. induction a as [|x a IH]; intros [|y b] E; simpl in E; try discriminate.
  - reflexivity.
  - apply andb_true_iff in E. destruct E as [E1 E2].
    f_equal; [apply H, E1 | apply IH, E2].
Qed.
Lemma list_eqb_refl : forall {A : Type} (eqb : A -> A -> bool),
  (forall x, eqb x x = true) -> forall a, list_eqb eqb a a = true.
Proof.
  intros A eqb H a. induction a as [|x a IH]; simpl; [reflexivity|]. rewrite H, IH. reflexivity.
Qed.

Definition poly_eqb : poly -> poly -> bool := list_eqb N.eqb.
Lemma poly_eqb_eq : forall a b, poly_eqb a b = true -> a = b.
Proof. apply list_eqb_eq. intros x y H. apply N.eqb_eq, H. Qed.
Lemma poly_eqb_refl : forall a, poly_eqb a a = true.
Proof. apply list_eqb_refl. apply N.eqb_refl. Qed.

Definition agree_below (n : nat) (r1 r2 : assignment) := forall i, i < n -> r1 i = r2 i.

Example anf_test1 :
  pand (pxor (pvar 0) (pvar 1)) (pxor (pvar 0) pone) = pxor (pand (pvar 0) (pvar 1)) (pvar 1).
Proof. vm_compute. reflexivity. Qed.
Example anf_test2 : pxor (pand (pvar 3) (pvar 2)) (pand (pvar 2) (pvar 3)) = pzero.
Proof. vm_compute. reflexivity. Qed.
