(* WholeSpecs.v — specifications of the block functions skinny*_ecb_encrypt / _decrypt of src/skinny128-cipher.c /
   skinny64-cipher.c on the memory of the generated whole-function IR (SIR.v, translator/c2sir.py), polymorphic in
   the bit carrier, built from the round steps of KernelSpecs.v.

   Memory: regions 0 = output, 1 = input, 2 = the key schedule object (slot i at offset slot0 + slotsz*i, with
   slot0 = slotsz = 8 for SKINNY-128 and 4 for SKINNY-64), 3 = the local state.
   The specification is a LIST of steps, one per segment of the flattened code cut at the S-box layers:
   prologue (state := input), then per round the S-box layer and the linear layer on (state, slot i), then the
   epilogue (output := state).  The obligations use the windowed lists [enc_stepsW] / [dec_stepsW], whose steps see
   region 2 cut down to the slot of their round (offsets [enc_offs] / [dec_offs]); [enc128_steps] ... [dec64_steps]
   are the same steps on the whole schedule region.  [enc_closed] / [dec_closed] give the fold of the windowed steps
   as an iteration of one round function over the slots. *)
From Coq Require Import List Arith Lia.
From Skinny Require Import IR Anf IRCheck KernelSpecs KernelHom Frame.
Import ListNotations.

(* unconditional homomorphism (all the specification steps commute with evaluation on every memory) *)
Definition homU (sP : mem poly -> mem poly) (sB : mem bool -> mem bool) : Prop :=
  forall rho m, mmap rho (sP m) = sB (mmap rho m).
Lemma homU_spec_hom : forall sizes sP sB, homU sP sB -> spec_hom sizes sP sB.
Proof. intros sizes sP sB H rho m _. apply H. Qed.
Lemma homU_compose : forall f1P f1B f2P f2B, homU f1P f1B -> homU f2P f2B ->
  homU (fun m => f2P (f1P m)) (fun m => f2B (f1B m)).
Proof. intros f1P f1B f2P f2B H1 H2 rho m. rewrite H2, H1. reflexivity. Qed.
Lemma Forall2_homU_spec_hom : forall sizes lP lB, Forall2 homU lP lB -> Forall2 (spec_hom sizes) lP lB.
Proof. intros sizes lP lB H. induction H; constructor; [apply homU_spec_hom; assumption | assumption]. Qed.

Section Whole.
  Variable B : Type.
  Notation reg := (reg B).

  (* the two-region memory of the round kernels, seen inside the four-region memory of the block function *)
  Definition slot_at (slot0 slotsz i : nat) (m : mem B) : list (list B) :=
    firstn slotsz (skipn (slot0 + slotsz * i) (reg m 2)).
  Definition lift_round (slot0 slotsz : nat) (f : mem B -> mem B) (i : nat) (m : mem B) : mem B :=
    [reg m 0; reg m 1; reg m 2; reg (f [reg m 3; slot_at slot0 slotsz i m]) 0].
  Definition w_prologue (m : mem B) : mem B := [reg m 0; reg m 1; reg m 2; reg m 1].
  Definition w_epilogue (m : mem B) : mem B := [reg m 3; reg m 1; reg m 2; reg m 3].

  Section Lists.
    Variables (sub lin : nat -> mem B -> mem B).      (* the two layers of round i, already lifted *)
    (* encryption: prologue; (sub i; lin i) for i = 0 .. R-1, the last linear layer merged with the epilogue *)
    Fixpoint enc_rounds (n i : nat) : list (mem B -> mem B) :=
      match n with
      | O => []
      | S O => [sub i; fun m => w_epilogue (lin i m)]
      | S n' => sub i :: lin i :: enc_rounds n' (S i)
      end.
    Definition enc_steps (R : nat) : list (mem B -> mem B) := w_prologue :: enc_rounds R 0.
    (* decryption: rounds R-1 .. 0, each (lin i; sub i); the first linear layer merged with the prologue *)
    Fixpoint dec_rounds (n : nat) : list (mem B -> mem B) :=
      match n with
      | O => [w_epilogue]
      | S n' => lin n' :: sub n' :: dec_rounds n'
      end.
    Definition dec_steps (R : nat) : list (mem B -> mem B) :=
      match R with
      | O => [fun m => w_epilogue (w_prologue m)]
      | S n' => (fun m => lin n' (w_prologue m)) :: sub n' :: dec_rounds n'
      end.
  End Lists.
End Whole.

Lemma enc_rounds_SS : forall B sub lin n i,
  enc_rounds B sub lin (S (S n)) i = sub i :: lin i :: enc_rounds B sub lin (S n) (S i).
Proof. reflexivity. Qed.

Section Inst.
  Variable B : Type.
  Variables (bx ba : B -> B -> B) (b0 b1 : B).
  Definition enc128_steps (R : nat) : list (mem B -> mem B) :=
    enc_steps B (lift_round B 8 8 (k128_subcells B bx ba b0 b1)) (lift_round B 8 8 (k128_enc_linear B bx b0 b1)) R.
  Definition dec128_steps (R : nat) : list (mem B -> mem B) :=
    dec_steps B (lift_round B 8 8 (k128_subcells_inv B bx ba b0 b1)) (lift_round B 8 8 (k128_dec_linear B bx b0 b1)) R.
  Definition enc64_steps (R : nat) : list (mem B -> mem B) :=
    enc_steps B (lift_round B 4 4 (k64_subcells B bx ba b0 b1)) (lift_round B 4 4 (k64_enc_linear B bx b0 b1)) R.
  Definition dec64_steps (R : nat) : list (mem B -> mem B) :=
    dec_steps B (lift_round B 4 4 (k64_subcells_inv B bx ba b0 b1)) (lift_round B 4 4 (k64_dec_linear B bx b0 b1)) R.
End Inst.

Lemma reg_mmap : forall rho (m : mem poly) r, reg bool (mmap rho m) r = map (vmap rho) (reg poly m r).
Proof. intros rho m r. unfold reg. apply nth_mmap. Qed.

Lemma homU_prologue : homU (w_prologue poly) (w_prologue bool).
Proof. intros rho m. unfold w_prologue. rewrite !reg_mmap. reflexivity. Qed.
Lemma homU_epilogue : homU (w_epilogue poly) (w_epilogue bool).
Proof. intros rho m. unfold w_epilogue. rewrite !reg_mmap. reflexivity. Qed.

(* a step on [state; slot], the slot read off the memory by [sl], written back into region 3 *)
Lemma homU_lift : forall (slP : mem poly -> list (list poly)) (slB : mem bool -> list (list bool)) fP fB,
  (forall rho m, slB (mmap rho m) = map (vmap rho) (slP m)) -> homU fP fB ->
  homU (fun m => [reg poly m 0; reg poly m 1; reg poly m 2; reg poly (fP [reg poly m 3; slP m]) 0])
       (fun m => [reg bool m 0; reg bool m 1; reg bool m 2; reg bool (fB [reg bool m 3; slB m]) 0]).
Proof.
  intros slP slB fP fB Hsl H rho m. rewrite !reg_mmap, Hsl.
  unfold mmap at 1. cbn [map]. rewrite <- (reg_mmap rho (fP _) 0), H. reflexivity.
Qed.
Lemma homU_lift_round : forall slot0 slotsz fP fB, homU fP fB ->
  forall i, homU (lift_round poly slot0 slotsz fP i) (lift_round bool slot0 slotsz fB i).
Proof.
  intros slot0 slotsz fP fB H i. apply (homU_lift (slot_at poly slot0 slotsz i) (slot_at bool slot0 slotsz i)); [|exact H].
  intros rho m. unfold slot_at. rewrite reg_mmap, skipn_map, firstn_map. reflexivity.
Qed.

(* what closes the step-by-step goals of the Forall2 homU lemmas (here and in WholeCtr.v) *)
Create HintDb homU discriminated.
#[export] Hint Constructors Forall2 : homU.
#[export] Hint Resolve homU_prologue homU_epilogue : homU.

Section ListsHom.
  Variables (subP linP : nat -> mem poly -> mem poly) (subB linB : nat -> mem bool -> mem bool).
  Hypothesis Hsub : forall i, homU (subP i) (subB i).
  Hypothesis Hlin : forall i, homU (linP i) (linB i).

  Lemma enc_rounds_hom : forall n i, Forall2 homU (enc_rounds poly subP linP n i) (enc_rounds bool subB linB n i).
  Proof.
    induction n as [|[|n] IH]; intros i; [constructor | | rewrite !enc_rounds_SS; auto with homU].
    cbn [enc_rounds]. auto using homU_compose with homU.
  Qed.
  Lemma enc_steps_hom : forall R, Forall2 homU (enc_steps poly subP linP R) (enc_steps bool subB linB R).
  Proof. intros R. unfold enc_steps. auto using enc_rounds_hom with homU. Qed.

  Lemma dec_rounds_hom : forall n, Forall2 homU (dec_rounds poly subP linP n) (dec_rounds bool subB linB n).
  Proof. induction n as [|n IH]; cbn [dec_rounds]; auto with homU. Qed.
  Lemma dec_steps_hom : forall R, Forall2 homU (dec_steps poly subP linP R) (dec_steps bool subB linB R).
  Proof. intros [|n]; cbn [dec_steps]; auto using homU_compose, dec_rounds_hom with homU. Qed.
End ListsHom.

(* KernelHom.hom_by for the unconditional form *)
Ltac homU_by L := intros rho m; unfold mmap, vmap; apply L; hom_side.
Lemma k128_subcells_homU : homU (k128_subcells poly pxor pand pzero pone) (k128_subcells bool xorb andb false true).
Proof. homU_by k128_subcells_homG. Qed.
Lemma k128_subcells_inv_homU : homU (k128_subcells_inv poly pxor pand pzero pone) (k128_subcells_inv bool xorb andb false true).
Proof. homU_by k128_subcells_inv_homG. Qed.
Lemma k128_enc_linear_homU : homU (k128_enc_linear poly pxor pzero pone) (k128_enc_linear bool xorb false true).
Proof. homU_by k128_enc_linear_homG. Qed.
Lemma k128_dec_linear_homU : homU (k128_dec_linear poly pxor pzero pone) (k128_dec_linear bool xorb false true).
Proof. homU_by k128_dec_linear_homG. Qed.
Lemma k64_subcells_homU : homU (k64_subcells poly pxor pand pzero pone) (k64_subcells bool xorb andb false true).
Proof. homU_by k64_subcells_homG. Qed.
Lemma k64_subcells_inv_homU : homU (k64_subcells_inv poly pxor pand pzero pone) (k64_subcells_inv bool xorb andb false true).
Proof. homU_by k64_subcells_inv_homG. Qed.
Lemma k64_enc_linear_homU : homU (k64_enc_linear poly pxor pzero pone) (k64_enc_linear bool xorb false true).
Proof. homU_by k64_enc_linear_homG. Qed.
Lemma k64_dec_linear_homU : homU (k64_dec_linear poly pxor pzero pone) (k64_dec_linear bool xorb false true).
Proof. homU_by k64_dec_linear_homG. Qed.

Theorem enc128_steps_hom : forall sizes R,
  Forall2 (spec_hom sizes) (enc128_steps poly pxor pand pzero pone R) (enc128_steps bool xorb andb false true R).
Proof.
  intros sizes R.
  exact (Forall2_homU_spec_hom sizes _ _ (enc_steps_hom _ _ _ _ (homU_lift_round 8 8 _ _ k128_subcells_homU)
                                            (homU_lift_round 8 8 _ _ k128_enc_linear_homU) R)).
Qed.
Theorem dec128_steps_hom : forall sizes R,
  Forall2 (spec_hom sizes) (dec128_steps poly pxor pand pzero pone R) (dec128_steps bool xorb andb false true R).
Proof.
  intros sizes R.
  exact (Forall2_homU_spec_hom sizes _ _ (dec_steps_hom _ _ _ _ (homU_lift_round 8 8 _ _ k128_subcells_inv_homU)
                                            (homU_lift_round 8 8 _ _ k128_dec_linear_homU) R)).
Qed.
Theorem enc64_steps_hom : forall sizes R,
  Forall2 (spec_hom sizes) (enc64_steps poly pxor pand pzero pone R) (enc64_steps bool xorb andb false true R).
Proof.
  intros sizes R.
  exact (Forall2_homU_spec_hom sizes _ _ (enc_steps_hom _ _ _ _ (homU_lift_round 4 4 _ _ k64_subcells_homU)
                                            (homU_lift_round 4 4 _ _ k64_enc_linear_homU) R)).
Qed.
Theorem dec64_steps_hom : forall sizes R,
  Forall2 (spec_hom sizes) (dec64_steps poly pxor pand pzero pone R) (dec64_steps bool xorb andb false true R).
Proof.
  intros sizes R.
  exact (Forall2_homU_spec_hom sizes _ _ (dec_steps_hom _ _ _ _ (homU_lift_round 4 4 _ _ k64_subcells_inv_homU)
                                            (homU_lift_round 4 4 _ _ k64_dec_linear_homU) R)).
Qed.

(* windowed form (SIRCheck.check_block_w): the key schedule region cut down to the slot of the round *)
Section Windowed.
  Variable B : Type.
  Notation reg := (reg B).
  (* on the window memory, region 2 IS the slot *)
  Definition liftW (f : mem B -> mem B) (m : mem B) : mem B :=
    [reg m 0; reg m 1; reg m 2; reg (f [reg m 3; reg m 2]) 0].
  Variables (slot0 slotsz : nat).
  Definition slot_off (i : nat) : nat := slot0 + slotsz * i.
  Fixpoint enc_round_offs (n i : nat) : list nat :=
    match n with O => [] | S n' => slot_off i :: slot_off i :: enc_round_offs n' (S i) end.
  Definition enc_offs (R : nat) : list nat := slot0 :: enc_round_offs R 0.
  Fixpoint dec_round_offs (n : nat) : list nat :=
    match n with O => [slot0] | S n' => slot_off n' :: slot_off n' :: dec_round_offs n' end.
  Definition dec_offs (R : nat) : list nat :=
    match R with O => [slot0] | S n' => slot_off n' :: slot_off n' :: dec_round_offs n' end.
  Definition enc_stepsW (sub lin : mem B -> mem B) (R : nat) : list (mem B -> mem B) :=
    enc_steps B (fun _ => liftW sub) (fun _ => liftW lin) R.
  Definition dec_stepsW (sub lin : mem B -> mem B) (R : nat) : list (mem B -> mem B) :=
    dec_steps B (fun _ => liftW sub) (fun _ => liftW lin) R.
End Windowed.

Lemma homU_liftW : forall fP fB, homU fP fB -> homU (liftW poly fP) (liftW bool fB).
Proof. intros fP fB. apply (homU_lift (fun m => reg poly m 2) (fun m => reg bool m 2)). intros rho m. apply reg_mmap. Qed.
Theorem enc_stepsW_hom : forall sizes subP subB linP linB R, homU subP subB -> homU linP linB ->
  Forall2 (spec_hom sizes) (enc_stepsW poly subP linP R) (enc_stepsW bool subB linB R).
Proof.
  intros sizes subP subB linP linB R Hs Hl. apply Forall2_homU_spec_hom. unfold enc_stepsW.
  apply enc_steps_hom; intros i; apply homU_liftW; assumption.
Qed.
Theorem dec_stepsW_hom : forall sizes subP subB linP linB R, homU subP subB -> homU linP linB ->
  Forall2 (spec_hom sizes) (dec_stepsW poly subP linP R) (dec_stepsW bool subB linB R).
Proof.
  intros sizes subP subB linP linB R Hs Hl. apply Forall2_homU_spec_hom. unfold dec_stepsW.
  apply dec_steps_hom; intros i; apply homU_liftW; assumption.
Qed.

(* the fold of SIRCheck.check_block_w_sound over the windowed steps, in closed form *)
Section Closed.
  Variables (slot0 slotsz : nat).
  Variables (sub lin : mem bool -> mem bool).         (* the two layers on [state; slot] *)
  Notation foldW := (fold_left (fun acc (ob : nat * (mem bool -> mem bool)) =>
                       unwindow bool 2 acc (snd ob (window bool 2 (fst ob) slotsz acc)))).
  Definition slot_of (ks : list (list bool)) (i : nat) : list (list bool) :=
    firstn slotsz (skipn (slot_off slot0 slotsz i) ks).
  Definition enc_step (ks : list (list bool)) (st : list (list bool)) (i : nat) : list (list bool) :=
    reg bool (lin [reg bool (sub [st; slot_of ks i]) 0; slot_of ks i]) 0.
  Definition dec_step (ks : list (list bool)) (st : list (list bool)) (i : nat) : list (list bool) :=
    reg bool (sub [reg bool (lin [st; slot_of ks i]) 0; slot_of ks i]) 0.

  (* By computation, unwindow . liftW f . window at offset o takes [x0; x1; ks; st] to
     [x0; x1; ks; reg bool (f [st; firstn slotsz (skipn o ks)]) 0]; two such steps are one round, which is how the
     induction steps below are closed by the induction hypothesis as it stands. *)
  Lemma enc_rounds_closed : forall n i x0 x1 ks st, 0 < n ->
    foldW (combine (enc_round_offs slot0 slotsz n i) (enc_rounds bool (fun _ => liftW bool sub) (fun _ => liftW bool lin) n i))
          [x0; x1; ks; st]
    = let st' := fold_left (enc_step ks) (seq i n) st in [st'; x1; ks; st'].
  Proof.
    induction n as [|n IH]; intros i x0 x1 ks st Hn; [lia|].
    destruct n as [|n]; [reflexivity|].
    exact (IH (S i) x0 x1 ks (enc_step ks st i) (Nat.lt_0_succ n)).
  Qed.

  Theorem enc_closed : forall R x0 x1 ks st, 0 < R ->
    foldW (combine (enc_offs slot0 slotsz R) (enc_stepsW bool sub lin R)) [x0; x1; ks; st]
    = let st' := fold_left (enc_step ks) (seq 0 R) x1 in [st'; x1; ks; st'].
  Proof.
    (* the prologue turns [x0; x1; ks; st] into [x0; x1; ks; x1], by computation *)
    intros R x0 x1 ks st HR. exact (enc_rounds_closed R 0 x0 x1 ks x1 HR).
  Qed.

  Lemma dec_rounds_closed : forall n x0 x1 ks st,
    foldW (combine (dec_round_offs slot0 slotsz n) (dec_rounds bool (fun _ => liftW bool sub) (fun _ => liftW bool lin) n))
          [x0; x1; ks; st]
    = let st' := fold_left (dec_step ks) (rev (seq 0 n)) st in [st'; x1; ks; st'].
  Proof.
    induction n as [|n IH]; intros x0 x1 ks st; [reflexivity|].
    rewrite seq_S, rev_app_distr. exact (IH x0 x1 ks (dec_step ks st n)).
  Qed.

  Theorem dec_closed : forall R x0 x1 ks st, 0 < R ->
    foldW (combine (dec_offs slot0 slotsz R) (dec_stepsW bool sub lin R)) [x0; x1; ks; st]
    = let st' := fold_left (dec_step ks) (rev (seq 0 R)) x1 in [st'; x1; ks; st'].
  Proof.
    (* prologue merged with the linear layer, then the S-box layer: round n *)
    intros [|n] x0 x1 ks st HR; [lia|]. rewrite seq_S, rev_app_distr.
    exact (dec_rounds_closed n x0 x1 ks (dec_step ks x1 n)).
  Qed.
End Closed.
