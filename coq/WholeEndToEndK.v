(* WholeEndToEndK.v — C10 on the whole-function specification of skinny128/64_set_key (tied to the C code by the key* parts):
   at EVERY accepted length the key-schedule object after the call equals the object after the call with the same bytes
   zero-padded to the next primary size — for every key, every prior object. *)
From Coq Require Import List NArith Arith Lia.
From Skinny Require Import Bits ModelCipher ProofsSkinny WholeKey.
Import ListNotations.

Theorem c_set_key128_padding : forall (key hdr : list byte) (sched : list (half byte)) back rest,
  16 <= length key <= 48 -> length hdr = 8 -> length sched = 56 ->
  let n' := 16 * ((length key + 15) / 16) in
  let obj := bitsb hdr ++ concat (map (KernelSpecs2.half_bytes128 bool) sched) ++ back in
  nth 0 (w_set_key128 bool xorb false true (length key) (obj :: bitsb key :: rest)) []
  = nth 0 (w_set_key128 bool xorb false true n' (obj :: bitsb (pad_to n' key) :: rest)) [].
Proof.
  intros key hdr sched back rest Hk Hh Hs. cbv zeta.
  set (n' := 16 * ((length key + 15) / 16)).
  assert (Hn' : 16 <= n' <= 48) by (destruct (ceil_blocks 15 (length key) 3 Hk) as (z & Hz & _ & Ez); unfold n'; rewrite Ez; lia).
  assert (Lp : length (pad_to n' key) = n') by apply pad_to_length.
  destruct (w_set_key128_model key hdr sched back 0%N rest Hk Hh Hs) as [_ E1]. cbv zeta in E1.
  destruct (w_set_key128_model (pad_to n' key) hdr sched back 0%N rest ltac:(rewrite Lp; exact Hn') Hh Hs) as [_ E2]. cbv zeta in E2.
  rewrite Lp in E2. rewrite E1, E2. cbn [nth].
  rewrite (m128_set_key_padding {| ks_rounds := 0%N; ks_sched := sched |} key (length key) Hk eq_refl). reflexivity.
Qed.

Theorem c_set_key64_padding : forall (key hdr : list byte) (sched : list (half nib)) back rest,
  8 <= length key <= 24 -> length hdr = 4 -> length sched = 40 ->
  let n' := 8 * ((length key + 7) / 8) in
  let obj := bitsb hdr ++ concat (map (KernelSpecs2.half_bytes64 bool) sched) ++ back in
  nth 0 (w_set_key64 bool xorb false true (length key) (obj :: bitsb key :: rest)) []
  = nth 0 (w_set_key64 bool xorb false true n' (obj :: bitsb (pad_to n' key) :: rest)) [].
Proof.
  intros key hdr sched back rest Hk Hh Hs. cbv zeta.
  set (n' := 8 * ((length key + 7) / 8)).
  assert (Hn' : 8 <= n' <= 24) by (destruct (ceil_blocks 7 (length key) 3 Hk) as (z & Hz & _ & Ez); unfold n'; rewrite Ez; lia).
  assert (Lp : length (pad_to n' key) = n') by apply pad_to_length.
  destruct (w_set_key64_model key hdr sched back 0%N rest Hk Hh Hs) as [_ E1]. cbv zeta in E1.
  destruct (w_set_key64_model (pad_to n' key) hdr sched back 0%N rest ltac:(rewrite Lp; exact Hn') Hh Hs) as [_ E2]. cbv zeta in E2.
  rewrite Lp in E2. rewrite E1, E2. cbn [nth].
  rewrite (m64_set_key_padding {| ks_rounds := 0%N; ks_sched := sched |} key (length key) Hk eq_refl). reflexivity.
Qed.
Print Assumptions c_set_key128_padding.
Print Assumptions c_set_key64_padding.
