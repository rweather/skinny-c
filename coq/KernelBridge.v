(* KernelBridge.v — the generated obligation files prove "C kernel = kernel specification step" and ProofsSkinny.v /
   ProofsMantis.v prove "model = paper specification"; here the two meet: every round, key-schedule iteration and
   MANTIS round of the model (ModelCipher.v) is one application of the kernel specification step of KernelSpecs.v /
   KernelSpecs2.v, on bool, to the byte memory that holds the model's values, and the single-block functions
   are iterations of those steps. *)
From Coq Require Import List NArith.
From Skinny Require Import ListFacts Bits SpecSkinny SpecMantis ModelCipher ProofsSkinny IR KernelSpecs KernelHom KernelSpecs2
  KernelHom2.
Import ListNotations.

Lemma reg_cons4_2 : forall (a b c d : list (list bool)), reg bool [a; b; c; d] 2 = c.  Proof. reflexivity. Qed.

(* reading back a slot that is the whole region *)
Lemma half128_of_reg_half_bytes128_nil : forall e : half byte,
  half128_of_reg bool false (KernelSpecs2.half_bytes128 bool e) = e.
Proof.
  intros e. rewrite <- (app_nil_r (KernelSpecs2.half_bytes128 bool e)).
  apply half128_of_reg_half_bytes128.
Qed.
Lemma half64_of_reg_half_bytes64_nil : forall e : half nib,
  half64_of_reg bool false (KernelSpecs2.half_bytes64 bool e) = e.
Proof.
  intros e. rewrite <- (app_nil_r (KernelSpecs2.half_bytes64 bool e)).
  apply half64_of_reg_half_bytes64.
Qed.

(* a block of the right length is the region image of its loaded state *)
Lemma reg_of_state128_load128 : forall blk : list byte, length blk = 16 ->
  reg_of_state128 bool (load128 blk) = map (bits_of_c8 bool) blk.
Proof. intros blk H. exact (f_equal (map (bits_of_c8 bool)) (store_load128 blk H)). Qed.
Lemma reg_of_state64_load64 : forall blk : list byte, length blk = 8 ->
  reg_of_state64 bool (load64 blk) = map (bits_of_c8 bool) blk.
Proof. intros blk H. exact (f_equal (map (bits_of_c8 bool)) (store_load64 blk H)). Qed.

(* one model round = the two kernel layers on the memory [state; schedule word]; the schedule-word region is
   left as it was by both layers, so the memory after a round is again of that shape *)
Lemma bridge128_enc_round_mem : forall (e : half byte) (s : state byte),
  k128_enc_linear bool xorb false true (k128_subcells bool xorb andb false true
        [reg_of_state128 bool s; KernelSpecs2.half_bytes128 bool e])
  = [reg_of_state128 bool (enc_round byte bxor8 cnib8 S8b e s); KernelSpecs2.half_bytes128 bool e].
Proof.
  intros e s. rewrite k128_round_is_spec_bool. cbn [reg nth].
  rewrite state128_of_reg_of_state128, half128_of_reg_half_bytes128_nil. reflexivity.
Qed.
Lemma bridge128_dec_round_mem : forall (e : half byte) (s : state byte),
  k128_subcells_inv bool xorb andb false true (k128_dec_linear bool xorb false true
        [reg_of_state128 bool s; KernelSpecs2.half_bytes128 bool e])
  = [reg_of_state128 bool (dec_round byte bxor8 cnib8 S8ib e s); KernelSpecs2.half_bytes128 bool e].
Proof.
  intros e s. rewrite k128_round_inv_is_spec_bool. cbn [reg nth].
  rewrite state128_of_reg_of_state128, half128_of_reg_half_bytes128_nil. reflexivity.
Qed.
Lemma bridge64_enc_round_mem : forall (e : half nib) (s : state nib),
  k64_enc_linear bool xorb false true (k64_subcells bool xorb andb false true
        [reg_of_state64 bool s; KernelSpecs2.half_bytes64 bool e])
  = [reg_of_state64 bool (enc_round nib bxor4 cnib4 S4b e s); KernelSpecs2.half_bytes64 bool e].
Proof.
  intros e s. rewrite k64_round_is_spec_bool. cbn [reg nth].
  rewrite state64_of_reg_of_state64, half64_of_reg_half_bytes64_nil. reflexivity.
Qed.
Lemma bridge64_dec_round_mem : forall (e : half nib) (s : state nib),
  k64_subcells_inv bool xorb andb false true (k64_dec_linear bool xorb false true
        [reg_of_state64 bool s; KernelSpecs2.half_bytes64 bool e])
  = [reg_of_state64 bool (dec_round nib bxor4 cnib4 S4ib e s); KernelSpecs2.half_bytes64 bool e].
Proof.
  intros e s. rewrite k64_round_inv_is_spec_bool. cbn [reg nth].
  rewrite state64_of_reg_of_state64, half64_of_reg_half_bytes64_nil. reflexivity.
Qed.

(* the kernel round step on the state region, with the schedule slot [e] placed in region 1 *)
Definition kstep128_enc (st : list (list bool)) (e : half byte) : list (list bool) :=
  reg bool (k128_enc_linear bool xorb false true (k128_subcells bool xorb andb false true
     [st; KernelSpecs2.half_bytes128 bool e])) 0.
Definition kstep128_dec (st : list (list bool)) (e : half byte) : list (list bool) :=
  reg bool (k128_subcells_inv bool xorb andb false true (k128_dec_linear bool xorb false true
     [st; KernelSpecs2.half_bytes128 bool e])) 0.
Definition kstep64_enc (st : list (list bool)) (e : half nib) : list (list bool) :=
  reg bool (k64_enc_linear bool xorb false true (k64_subcells bool xorb andb false true
     [st; KernelSpecs2.half_bytes64 bool e])) 0.
Definition kstep64_dec (st : list (list bool)) (e : half nib) : list (list bool) :=
  reg bool (k64_subcells_inv bool xorb andb false true (k64_dec_linear bool xorb false true
     [st; KernelSpecs2.half_bytes64 bool e])) 0.

(* [fold_left_fusion] applies below because [m128_encrypt ks blk] unfolds to [store128] of a [fold_left] of rounds
   from [load128 blk], and [map (bits_of_c8 bool) (store128 s)] is convertible to [reg_of_state128 bool s]
   (likewise for the other three) *)
Theorem m128_encrypt_by_kernels : forall (ks : ks128) (blk : list byte), length blk = 16 ->
  map (bits_of_c8 bool) (m128_encrypt ks blk)
  = fold_left kstep128_enc (used byte ks) (map (bits_of_c8 bool) blk).
Proof.
  intros ks blk H. rewrite <- (reg_of_state128_load128 blk H).
  apply (fold_left_fusion _ kstep128_enc (reg_of_state128 bool)).
  intros e s. unfold kstep128_enc. now rewrite bridge128_enc_round_mem.
Qed.
Theorem m128_decrypt_by_kernels : forall (ks : ks128) (blk : list byte), length blk = 16 ->
  map (bits_of_c8 bool) (m128_decrypt ks blk)
  = fold_left kstep128_dec (rev (used byte ks)) (map (bits_of_c8 bool) blk).
Proof.
  intros ks blk H. rewrite <- (reg_of_state128_load128 blk H).
  apply (fold_left_fusion _ kstep128_dec (reg_of_state128 bool)).
  intros e s. unfold kstep128_dec. now rewrite bridge128_dec_round_mem.
Qed.
(* SKINNY-64 blocks are 8 bytes holding two cells each: [map (bits_of_c8 bool) blk] is the 8-byte region *)
Theorem m64_encrypt_by_kernels : forall (ks : ks64) (blk : list byte), length blk = 8 ->
  map (bits_of_c8 bool) (m64_encrypt ks blk)
  = fold_left kstep64_enc (used nib ks) (map (bits_of_c8 bool) blk).
Proof.
  intros ks blk H. rewrite <- (reg_of_state64_load64 blk H).
  apply (fold_left_fusion _ kstep64_enc (reg_of_state64 bool)).
  intros e s. unfold kstep64_enc. now rewrite bridge64_enc_round_mem.
Qed.
Theorem m64_decrypt_by_kernels : forall (ks : ks64) (blk : list byte), length blk = 8 ->
  map (bits_of_c8 bool) (m64_decrypt ks blk)
  = fold_left kstep64_dec (rev (used nib ks)) (map (bits_of_c8 bool) blk).
Proof.
  intros ks blk H. rewrite <- (reg_of_state64_load64 blk H).
  apply (fold_left_fusion _ kstep64_dec (reg_of_state64 bool)).
  intros e s. unfold kstep64_dec. now rewrite bridge64_dec_round_mem.
Qed.

(* key schedule: one iteration of the model's passes = the kernel loop-body specification.
   memory: region 0 = tk, region 1 = pre ++ slot ++ post (slot at offset 8 / 4), region 2 = rc byte *)
Notation xor_upd128 := (fun (e k : half byte) (_ : rc6) => hxor byte bxor8 e k).
Notation xor_upd64 := (fun (e k : half nib) (_ : rc6) => hxor nib bxor4 e k).
Notation tk1_upd128 tweaked :=
  (fun (_ k : half byte) (r : rc6) => hxor byte bxor8 k (const_half byte cnib8 byte0 tweaked r)).
Notation tk1_upd64 tweaked :=
  (fun (_ k : half nib) (r : rc6) => hxor nib bxor4 k (const_half nib cnib4 nib0 tweaked r)).

Lemma bridge128_xor_iteration : forall next n tk r e rest pre post, length pre = 8 ->
  let m' := k128_xor_body bool xorb false next
              [reg_of_state128 bool tk; pre ++ KernelSpecs2.half_bytes128 bool e ++ post] in
  sched_loop byte (S n) xor_upd128 next tk r (e :: rest)
  = half128_of_reg bool false (skipn 8 (reg bool m' 1))
    :: sched_loop byte n xor_upd128 next (state128_of_reg bool false (reg bool m' 0)) (rc_next r) rest.
Proof.
  intros next n tk r e rest pre post Hpre. cbv zeta.
  rewrite (k128_xor_body_step bool xorb false next tk e pre post Hpre). cbn [reg nth].
  rewrite (skipn_app_exact pre _ 8 Hpre), half128_of_reg_half_bytes128, state128_of_reg_of_state128.
  reflexivity.
Qed.
Lemma bridge64_xor_iteration : forall next n tk r e rest pre post, length pre = 4 ->
  let m' := k64_xor_body bool xorb false next
              [reg_of_state64 bool tk; pre ++ KernelSpecs2.half_bytes64 bool e ++ post] in
  sched_loop nib (S n) xor_upd64 next tk r (e :: rest)
  = half64_of_reg bool false (skipn 4 (reg bool m' 1))
    :: sched_loop nib n xor_upd64 next (state64_of_reg bool false (reg bool m' 0)) (rc_next r) rest.
Proof.
  intros next n tk r e rest pre post Hpre. cbv zeta.
  rewrite (k64_xor_body_step bool xorb false next tk e pre post Hpre). cbn [reg nth].
  rewrite (skipn_app_exact pre _ 4 Hpre), half64_of_reg_half_bytes64, state64_of_reg_of_state64.
  reflexivity.
Qed.

Lemma bridge128_tk2_iteration : forall n tk r e rest pre post, length pre = 8 ->
  let m' := k128_tk2_body bool xorb false
              [reg_of_state128 bool tk; pre ++ KernelSpecs2.half_bytes128 bool e ++ post] in
  sched_loop byte (S n) xor_upd128 (next_tk2 byte (lfsr2_8 bool xorb)) tk r (e :: rest)
  = half128_of_reg bool false (skipn 8 (reg bool m' 1))
    :: sched_loop byte n xor_upd128 (next_tk2 byte (lfsr2_8 bool xorb))
                  (state128_of_reg bool false (reg bool m' 0)) (rc_next r) rest.
Proof. exact (bridge128_xor_iteration (next_tk2 byte (lfsr2_8 bool xorb))). Qed.
Lemma bridge128_tk3_iteration : forall n tk r e rest pre post, length pre = 8 ->
  let m' := k128_tk3_body bool xorb false
              [reg_of_state128 bool tk; pre ++ KernelSpecs2.half_bytes128 bool e ++ post] in
  sched_loop byte (S n) xor_upd128 (next_tk3 byte (lfsr3_8 bool xorb)) tk r (e :: rest)
  = half128_of_reg bool false (skipn 8 (reg bool m' 1))
    :: sched_loop byte n xor_upd128 (next_tk3 byte (lfsr3_8 bool xorb))
                  (state128_of_reg bool false (reg bool m' 0)) (rc_next r) rest.
Proof. exact (bridge128_xor_iteration (next_tk3 byte (lfsr3_8 bool xorb))). Qed.
Lemma bridge128_xor_tk1_iteration : forall n tk r e rest pre post, length pre = 8 ->
  let m' := k128_xor_tk1_body bool xorb false
              [reg_of_state128 bool tk; pre ++ KernelSpecs2.half_bytes128 bool e ++ post] in
  sched_loop byte (S n) xor_upd128 (next_tk1 byte) tk r (e :: rest)
  = half128_of_reg bool false (skipn 8 (reg bool m' 1))
    :: sched_loop byte n xor_upd128 (next_tk1 byte)
                  (state128_of_reg bool false (reg bool m' 0)) (rc_next r) rest.
Proof. exact (bridge128_xor_iteration (next_tk1 byte)). Qed.
(* set_tk1: the round constant is carried in region 2 and read back with rc_of_bits *)
Lemma bridge128_set_tk1_iteration : forall tweaked n tk r e rest pre post, length pre = 8 ->
  let m' := k128_tk1_body bool xorb false true tweaked
              [reg_of_state128 bool tk; pre ++ KernelSpecs2.half_bytes128 bool e ++ post; [bits_of_rc r]] in
  sched_loop byte (S n) (tk1_upd128 tweaked) (next_tk1 byte) tk r (e :: rest)
  = half128_of_reg bool false (skipn 8 (reg bool m' 1))
    :: sched_loop byte n (tk1_upd128 tweaked) (next_tk1 byte)
                  (state128_of_reg bool false (reg bool m' 0))
                  (rc_of_bits (nth 0 (reg bool m' 2) [])) rest.
Proof.
  intros tweaked n tk r e rest pre post Hpre. cbv zeta.
  rewrite (k128_tk1_body_step tweaked tk e pre post r Hpre). cbn [reg nth].
  rewrite (skipn_app_exact pre _ 8 Hpre), half128_of_reg_half_bytes128, state128_of_reg_of_state128.
  rewrite rc_of_bits_of_rc. reflexivity.
Qed.

Lemma bridge64_tk2_iteration : forall n tk r e rest pre post, length pre = 4 ->
  let m' := k64_tk2_body bool xorb false
              [reg_of_state64 bool tk; pre ++ KernelSpecs2.half_bytes64 bool e ++ post] in
  sched_loop nib (S n) xor_upd64 (next_tk2 nib (lfsr2_4 bool xorb)) tk r (e :: rest)
  = half64_of_reg bool false (skipn 4 (reg bool m' 1))
    :: sched_loop nib n xor_upd64 (next_tk2 nib (lfsr2_4 bool xorb))
                  (state64_of_reg bool false (reg bool m' 0)) (rc_next r) rest.
Proof. exact (bridge64_xor_iteration (next_tk2 nib (lfsr2_4 bool xorb))). Qed.
Lemma bridge64_tk3_iteration : forall n tk r e rest pre post, length pre = 4 ->
  let m' := k64_tk3_body bool xorb false
              [reg_of_state64 bool tk; pre ++ KernelSpecs2.half_bytes64 bool e ++ post] in
  sched_loop nib (S n) xor_upd64 (next_tk3 nib (lfsr3_4 bool xorb)) tk r (e :: rest)
  = half64_of_reg bool false (skipn 4 (reg bool m' 1))
    :: sched_loop nib n xor_upd64 (next_tk3 nib (lfsr3_4 bool xorb))
                  (state64_of_reg bool false (reg bool m' 0)) (rc_next r) rest.
Proof. exact (bridge64_xor_iteration (next_tk3 nib (lfsr3_4 bool xorb))). Qed.
Lemma bridge64_xor_tk1_iteration : forall n tk r e rest pre post, length pre = 4 ->
  let m' := k64_xor_tk1_body bool xorb false
              [reg_of_state64 bool tk; pre ++ KernelSpecs2.half_bytes64 bool e ++ post] in
  sched_loop nib (S n) xor_upd64 (next_tk1 nib) tk r (e :: rest)
  = half64_of_reg bool false (skipn 4 (reg bool m' 1))
    :: sched_loop nib n xor_upd64 (next_tk1 nib)
                  (state64_of_reg bool false (reg bool m' 0)) (rc_next r) rest.
Proof. exact (bridge64_xor_iteration (next_tk1 nib)). Qed.
Lemma bridge64_set_tk1_iteration : forall tweaked n tk r e rest pre post, length pre = 4 ->
  let m' := k64_tk1_body bool xorb false true tweaked
              [reg_of_state64 bool tk; pre ++ KernelSpecs2.half_bytes64 bool e ++ post; [bits_of_rc r]] in
  sched_loop nib (S n) (tk1_upd64 tweaked) (next_tk1 nib) tk r (e :: rest)
  = half64_of_reg bool false (skipn 4 (reg bool m' 1))
    :: sched_loop nib n (tk1_upd64 tweaked) (next_tk1 nib)
                  (state64_of_reg bool false (reg bool m' 0))
                  (rc_of_bits (nth 0 (reg bool m' 2) [])) rest.
Proof.
  intros tweaked n tk r e rest pre post Hpre. cbv zeta.
  rewrite (k64_tk1_body_step tweaked tk e pre post r Hpre). cbn [reg nth].
  rewrite (skipn_app_exact pre _ 4 Hpre), half64_of_reg_half_bytes64, state64_of_reg_of_state64.
  rewrite rc_of_bits_of_rc. reflexivity.
Qed.

(* the passes of the model are [sched_loop] at exactly these [upd] / [next] (by definition) *)
Lemma set_tk2_128_is_loop : forall n key sched,
  set_tk2 byte bxor8 (lfsr2_8 bool xorb) 16 load128 n key sched
  = sched_loop byte n xor_upd128 (next_tk2 byte (lfsr2_8 bool xorb)) (load128 (pad_to 16 key)) (rc_init) sched.
Proof. reflexivity. Qed.
Lemma set_tk3_128_is_loop : forall n key sched,
  set_tk3 byte bxor8 (lfsr3_8 bool xorb) 16 load128 n key sched
  = sched_loop byte n xor_upd128 (next_tk3 byte (lfsr3_8 bool xorb)) (load128 (pad_to 16 key)) (rc_init) sched.
Proof. reflexivity. Qed.
Lemma xor_tk1_128_is_loop : forall n key sched,
  xor_tk1 byte bxor8 16 load128 n key sched
  = sched_loop byte n xor_upd128 (next_tk1 byte) (load128 (pad_to 16 key)) (rc_init) sched.
Proof. reflexivity. Qed.
Lemma set_tk1_128_is_loop : forall n key tweaked sched,
  set_tk1 byte bxor8 cnib8 16 load128 byte0 n key tweaked sched
  = sched_loop byte n (tk1_upd128 tweaked) (next_tk1 byte) (load128 (pad_to 16 key)) (rc_init) sched.
Proof. reflexivity. Qed.
Lemma set_tk2_64_is_loop : forall n key sched,
  set_tk2 nib bxor4 (lfsr2_4 bool xorb) 8 load64 n key sched
  = sched_loop nib n xor_upd64 (next_tk2 nib (lfsr2_4 bool xorb)) (load64 (pad_to 8 key)) (rc_init) sched.
Proof. reflexivity. Qed.
Lemma set_tk3_64_is_loop : forall n key sched,
  set_tk3 nib bxor4 (lfsr3_4 bool xorb) 8 load64 n key sched
  = sched_loop nib n xor_upd64 (next_tk3 nib (lfsr3_4 bool xorb)) (load64 (pad_to 8 key)) (rc_init) sched.
Proof. reflexivity. Qed.
Lemma xor_tk1_64_is_loop : forall n key sched,
  xor_tk1 nib bxor4 8 load64 n key sched
  = sched_loop nib n xor_upd64 (next_tk1 nib) (load64 (pad_to 8 key)) (rc_init) sched.
Proof. reflexivity. Qed.
Lemma set_tk1_64_is_loop : forall n key tweaked sched,
  set_tk1 nib bxor4 cnib4 8 load64 nib0 n key tweaked sched
  = sched_loop nib n (tk1_upd64 tweaked) (next_tk1 nib) (load64 (pad_to 8 key)) (rc_init) sched.
Proof. reflexivity. Qed.

(* MANTIS: fwd / bwd are iterations of the kernel round steps.
   memory: regions tweak, state, rc (the table entry of this round), k1 *)
Notation Sb0b := (Sb0 bool xorb andb true).
Notation rg64 := (reg_of_state64 bool).
Notation st64 := (state64_of_reg bool false).

Definition kstep_mantis_fwd (mem4 : mem bool) (rc : N) : mem bool :=
  let m := [reg bool mem4 0; reg bool mem4 1; reg_of_state64 bool (const_state nib cnib4 rc); reg bool mem4 3] in
  km_fwd_linear bool xorb false (km_sub bool xorb andb false true (km_h bool false m)).
Definition kstep_mantis_bwd (mem4 : mem bool) (rc : N) : mem bool :=
  let m := [reg bool mem4 0; reg bool mem4 1; reg_of_state64 bool (const_state nib cnib4 rc); reg bool mem4 3] in
  km_h_inv bool false (km_sub bool xorb andb false true (km_bwd_linear bool xorb false m)).

Lemma kstep_mantis_fwd_mem : forall T x c k rc,
  kstep_mantis_fwd [rg64 T; rg64 x; c; rg64 k] rc
  = [rg64 (h_perm nib T);
     rg64 (mix nib bxor4 (permute_cells nib
             (sx nib bxor4 (sx nib bxor4 (smap nib Sb0b x) (const_state nib cnib4 rc))
                           (sx nib bxor4 k (h_perm nib T)))));
     rg64 (const_state nib cnib4 rc); rg64 k].
Proof. intros T x c k rc. unfold kstep_mantis_fwd. cbn [reg nth]. apply km_fwd_is_spec. Qed.
Lemma kstep_mantis_bwd_mem : forall T x c k rc,
  kstep_mantis_bwd [rg64 T; rg64 x; c; rg64 k] rc
  = [rg64 (h_perm_inv nib T);
     rg64 (smap nib Sb0b
             (sx nib bxor4 (sx nib bxor4 (permute_cells_inv nib (mix nib bxor4 x)) (sx nib bxor4 k T))
                 (const_state nib cnib4 rc)));
     rg64 (const_state nib cnib4 rc); rg64 k].
Proof. intros T x c k rc. unfold kstep_mantis_bwd. cbn [reg nth]. apply km_bwd_is_spec. Qed.

(* the statement with an arbitrary content [c] of the rc region (it is overwritten before it is read) *)
Lemma mantis_fwd_by_kernels_gen : forall rcs k T x c,
  let mr := fold_left kstep_mantis_fwd rcs [rg64 T; rg64 x; c; rg64 k] in
  fwd nib bxor4 cnib4 Sb0b rcs k T x = (st64 (reg bool mr 1), st64 (reg bool mr 0))
  /\ reg bool mr 3 = rg64 k.
Proof.
  intros rcs k. induction rcs as [|rc rest IH]; intros T x c; cbv zeta.
  - cbn [fold_left fwd reg nth]. now rewrite !state64_of_reg_of_state64.
  - cbn [fold_left fwd]. rewrite kstep_mantis_fwd_mem. apply IH.
Qed.
Lemma mantis_bwd_by_kernels_gen : forall rcs k T x c,
  let mr := fold_left kstep_mantis_bwd rcs [rg64 T; rg64 x; c; rg64 k] in
  bwd nib bxor4 cnib4 Sb0b rcs k T x = (st64 (reg bool mr 1), st64 (reg bool mr 0))
  /\ reg bool mr 3 = rg64 k.
Proof.
  intros rcs k. induction rcs as [|rc rest IH]; intros T x c; cbv zeta.
  - cbn [fold_left bwd reg nth]. now rewrite !state64_of_reg_of_state64.
  - cbn [fold_left bwd]. rewrite kstep_mantis_bwd_mem. apply IH.
Qed.

Theorem mantis_fwd_by_kernels : forall rcs k T x,
  let m0 := [reg_of_state64 bool T; reg_of_state64 bool x; []; reg_of_state64 bool k] in
  let mr := fold_left kstep_mantis_fwd rcs m0 in
  fwd nib bxor4 cnib4 (Sb0 bool xorb andb true) rcs k T x
  = (state64_of_reg bool false (reg bool mr 1), state64_of_reg bool false (reg bool mr 0)).
Proof. intros rcs k T x. cbv zeta. apply (mantis_fwd_by_kernels_gen rcs k T x []). Qed.
Theorem mantis_bwd_by_kernels : forall rcs k T x,
  let m0 := [reg_of_state64 bool T; reg_of_state64 bool x; []; reg_of_state64 bool k] in
  let mr := fold_left kstep_mantis_bwd rcs m0 in
  bwd nib bxor4 cnib4 (Sb0 bool xorb andb true) rcs k T x
  = (state64_of_reg bool false (reg bool mr 1), state64_of_reg bool false (reg bool mr 0)).
Proof. intros rcs k T x. cbv zeta. apply (mantis_bwd_by_kernels_gen rcs k T x []). Qed.

(* the whole MANTIS core: whitening, r forward kernel steps, the middle, r backward kernel steps (constants in
   reverse order, key k1 xor alpha), whitening *)
Definition mantis_core_by_kernels (r : nat) (k0 k0' k1 t m : state nib) : state nib :=
  let rcs := firstn r (RCs) in
  let mF := fold_left kstep_mantis_fwd rcs
              [rg64 t; rg64 (sx nib bxor4 m (sx nib bxor4 k0 (sx nib bxor4 k1 t))); []; rg64 k1] in
  let xm := smap nib Sb0b (mix nib bxor4 (smap nib Sb0b (st64 (reg bool mF 1)))) in
  let k1a := sx nib bxor4 k1 (const_state nib cnib4 ALPHA) in
  let mB := fold_left kstep_mantis_bwd (rev rcs) [rg64 (st64 (reg bool mF 0)); rg64 xm; []; rg64 k1a] in
  sx nib bxor4 (st64 (reg bool mB 1)) (sx nib bxor4 k0' (sx nib bxor4 k1a (st64 (reg bool mB 0)))).

Theorem mantis_core_is_by_kernels : forall r k0 k0' k1 t m,
  mantis_core bool xorb andb false true r k0 k0' k1 t m = mantis_core_by_kernels r k0 k0' k1 t m.
Proof.
  intros r k0 k0' k1 t m. unfold mantis_core, core, mantis_core_by_kernels. cbv zeta.
  change (@c4x bool xorb) with bxor4.
  rewrite mantis_fwd_by_kernels. cbv zeta.
  unfold sub. rewrite mantis_bwd_by_kernels. cbv zeta. reflexivity.
Qed.

Theorem mantis_crypt_by_kernels : forall ks blk,
  mantis_crypt ks blk
  = store64 (mantis_core_by_kernels (N.to_nat (mk_rounds ks)) (mk_k0 ks) (mk_k0p ks) (mk_k1 ks)
               (mk_tweak ks) (load64 blk)).
Proof. intros ks blk. unfold mantis_crypt. rewrite mantis_core_is_by_kernels. reflexivity. Qed.
Theorem mantis_crypt_tweaked_by_kernels : forall ks tw blk,
  mantis_crypt_tweaked ks tw blk
  = store64 (mantis_core_by_kernels (N.to_nat (mk_rounds ks)) (mk_k0 ks) (mk_k0p ks) (mk_k1 ks)
               (load64 tw) (load64 blk)).
Proof. intros ks tw blk. unfold mantis_crypt_tweaked. rewrite mantis_core_is_by_kernels. reflexivity. Qed.

Print Assumptions bridge128_enc_round_mem.
Print Assumptions bridge128_dec_round_mem.
Print Assumptions bridge64_enc_round_mem.
Print Assumptions bridge64_dec_round_mem.
Print Assumptions m128_encrypt_by_kernels.
Print Assumptions m128_decrypt_by_kernels.
Print Assumptions m64_encrypt_by_kernels.
Print Assumptions m64_decrypt_by_kernels.
Print Assumptions bridge128_tk2_iteration.
Print Assumptions bridge128_tk3_iteration.
Print Assumptions bridge128_xor_tk1_iteration.
Print Assumptions bridge128_set_tk1_iteration.
Print Assumptions bridge64_tk2_iteration.
Print Assumptions bridge64_tk3_iteration.
Print Assumptions bridge64_xor_tk1_iteration.
Print Assumptions bridge64_set_tk1_iteration.
Print Assumptions mantis_fwd_by_kernels.
Print Assumptions mantis_bwd_by_kernels.
Print Assumptions mantis_core_is_by_kernels.
Print Assumptions mantis_crypt_by_kernels.
Print Assumptions mantis_crypt_tweaked_by_kernels.

