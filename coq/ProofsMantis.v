(* ProofsMantis.v — MANTIS: the core inverts itself under swapped whitening
   keys and k1 xor alpha; byte-level round trips; the model of the C key
   schedule object computes the specification (C02); mode switching (C03). *)
From Coq Require Import List Bool NArith.
From Skinny Require Import Bits XorGroup SpecSkinny SpecMantis ModelCipher ProofsSkinny.
Import ListNotations.

Lemma Sb0_involutive : forall x : nib, Sb0 bool xorb andb true (Sb0 bool xorb andb true x) = x.
Proof. intros x. apply nib_eqb_eq. revert x. apply forall_nibs. vm_compute. reflexivity. Qed.

(* the core over any cell type with an xor-group structure *)
Section GenericInv.
  Variable C : Type.
  Variable cx : C -> C -> C.
  Variable cnib : bool -> bool -> bool -> bool -> C.
  Variable sb : C -> C.
  Variable czero : C.
  Hypothesis cxA : forall a b c, cx (cx a b) c = cx a (cx b c).
  Hypothesis cxC : forall a b, cx a b = cx b a.
  Hypothesis cxN : forall a, cx a a = czero.
  Hypothesis cx0 : forall a, cx a czero = a.
  Hypothesis sb_inv : forall x, sb (sb x) = x.

  Notation st := (state C).
  Notation gsx := (sx C cx).
  Notation gsub := (sub C sb).
  Notation gmix := (mix C cx).
  Notation gpc := (permute_cells C).
  Notation gpci := (permute_cells_inv C).
  Notation gh := (h_perm C).
  Notation ghi := (h_perm_inv C).
  Notation gconst := (const_state C cnib).
  Notation gfwd := (fwd C cx cnib sb).
  Notation gbwd := (bwd C cx cnib sb).

  Lemma gsx_cancel (a b : st) : gsx (gsx a b) b = a.
  Proof. dstate a. dstate b. cbn. pair_eq; xor_group cxA cxC cxN cx0. Qed.

  Lemma gsub_inv (s : st) : gsub (gsub s) = s.
  Proof. dstate s. unfold sub. cbn. rewrite !sb_inv. reflexivity. Qed.

  Lemma gmix_inv (s : st) : gmix (gmix s) = s.
  Proof. dstate s. cbn. pair_eq; xor_group cxA cxC cxN cx0. Qed.

  Lemma gpci_pc (s : st) : gpci (gpc s) = s.
  Proof. dstate s. reflexivity. Qed.
  Lemma gpc_pci (s : st) : gpc (gpci s) = s.
  Proof. dstate s. reflexivity. Qed.
  Lemma ghi_h (s : st) : ghi (gh s) = s.
  Proof. dstate s. reflexivity. Qed.
  Lemma gh_hi (s : st) : gh (ghi s) = s.
  Proof. dstate s. reflexivity. Qed.

  Definition Frnd (rc : N) (k t x : st) : st :=
    gmix (gpc (gsx (gsx (gsub x) (gconst rc)) (gsx k t))).
  Definition Grnd (rc : N) (k t x : st) : st :=
    gsub (gsx (gsx (gpci (gmix x)) (gsx k t)) (gconst rc)).

  Lemma G_F rc k t x : Grnd rc k t (Frnd rc k t x) = x.
  Proof.
    unfold Grnd, Frnd. rewrite gmix_inv, gpci_pc, !gsx_cancel. apply gsub_inv.
  Qed.
  Lemma F_G rc k t x : Frnd rc k t (Grnd rc k t x) = x.
  Proof.
    unfold Grnd, Frnd. rewrite gsub_inv, !gsx_cancel, gpc_pci. apply gmix_inv.
  Qed.

  Lemma fwd_cons rc rest k t x :
    gfwd (rc :: rest) k t x = gfwd rest k (gh t) (Frnd rc k (gh t) x).
  Proof. reflexivity. Qed.
  Lemma bwd_cons rc rest k t x :
    gbwd (rc :: rest) k t x = gbwd rest k (ghi t) (Grnd rc k t x).
  Proof. reflexivity. Qed.

  Lemma bwd_app l1 : forall l2 k t x,
    gbwd (l1 ++ l2) k t x = gbwd l2 k (snd (gbwd l1 k t x)) (fst (gbwd l1 k t x)).
  Proof.
    induction l1 as [|rc l1 IH]; intros l2 k t x.
    - reflexivity.
    - rewrite <- app_comm_cons, !bwd_cons. apply IH.
  Qed.

  (* the tweak that comes out of the backward rounds does not depend on the
     key or the data *)
  Lemma bwd_snd_indep l : forall k k' t x x',
    snd (gbwd l k t x) = snd (gbwd l k' t x').
  Proof.
    induction l as [|rc l IH]; intros k k' t x x'.
    - reflexivity.
    - rewrite !bwd_cons. apply IH.
  Qed.

  Lemma bwd_fwd rcs : forall k t x,
    gbwd (rev rcs) k (snd (gfwd rcs k t x)) (fst (gfwd rcs k t x)) = (x, t).
  Proof.
    induction rcs as [|rc rcs IH]; intros k t x.
    - reflexivity.
    - rewrite fwd_cons. change (rev (rc :: rcs)) with (rev rcs ++ [rc]).
      rewrite bwd_app, IH. cbn [fst snd]. rewrite bwd_cons.
      rewrite G_F, ghi_h. reflexivity.
  Qed.

  Lemma fwd_bwd rcs : forall k t x,
    gfwd rcs k (snd (gbwd (rev rcs) k t x)) (fst (gbwd (rev rcs) k t x)) = (x, t).
  Proof.
    induction rcs as [|rc rcs IH]; intros k t x.
    - reflexivity.
    - change (rev (rc :: rcs)) with (rev rcs ++ [rc]).
      rewrite bwd_app. rewrite bwd_cons. cbn [gbwd fst snd].
      rewrite fwd_cons. rewrite gh_hi, F_G. apply IH.
  Qed.

  Lemma bwd_fwd_snd rcs k k' t x y : snd (gbwd (rev rcs) k (snd (gfwd rcs k' t x)) y) = t.
  Proof. now rewrite (bwd_snd_indep _ k k' _ y (fst (gfwd rcs k' t x))), bwd_fwd. Qed.

  Lemma core_unfold r k0 k0' k1 t m :
    core C cx cnib sb r k0 k0' k1 t m =
    let rcs := firstn r RCs in
    let p := gfwd rcs k1 t (gsx m (gsx k0 (gsx k1 t))) in
    let k1a := gsx k1 (gconst ALPHA) in
    let q := gbwd (rev rcs) k1a (snd p) (gsub (gmix (gsub (fst p)))) in
    gsx (fst q) (gsx k0' (gsx k1a (snd q))).
  Proof.
    unfold core. cbv zeta.
    destruct (gfwd (firstn r RCs) k1 t (gsx m (gsx k0 (gsx k1 t)))) as [x tr].
    cbn [fst snd].
    destruct (gbwd (rev (firstn r RCs)) (gsx k1 (gconst ALPHA)) tr (gsub (gmix (gsub x)))) as [y t0].
    reflexivity.
  Qed.

  Theorem core_inverse r k0 k0' k1 t m :
    core C cx cnib sb r k0' k0 (gsx k1 (gconst ALPHA)) t
      (core C cx cnib sb r k0 k0' k1 t m) = m.
  Proof.
    rewrite (core_unfold r k0 k0' k1 t m). cbv zeta.
    set (rcs := firstn r RCs). set (k1a := gsx k1 (gconst ALPHA)).
    set (p := gfwd rcs k1 t _). set (x' := gsub (gmix (gsub (fst p)))).
    set (q := gbwd (rev rcs) k1a (snd p) x').
    (* the tweak comes back, so the second call runs the first one's rounds backwards *)
    assert (Ht : snd q = t) by apply bwd_fwd_snd.
    rewrite core_unfold, Ht. cbv zeta. fold rcs k1a. rewrite gsx_cancel.
    replace (gfwd rcs k1a t (fst q)) with (x', snd p)
      by (rewrite <- Ht at 1; symmetry; apply fwd_bwd).
    cbn [fst snd]. unfold x', k1a. rewrite gsub_inv, gmix_inv, gsub_inv, !gsx_cancel.
    unfold p. rewrite bwd_fwd. apply gsx_cancel.
  Qed.
End GenericInv.

Notation mcore := (mantis_core bool xorb andb false true).

Lemma msx_cancel (a b : state nib) : msx (msx a b) b = a.
Proof. exact (gsx_cancel nib bxor4 nib0 bxor4_assoc bxor4_comm bxor4_nilp bxor4_0_r a b). Qed.

(* core inverts itself under swapped whitening keys and k1 xor alpha — all
   states, all r *)
Theorem mantis_core_inverse : forall (r : nat) (k0 k0' k1 t m : state nib),
  mantis_core bool xorb andb false true r k0' k0 (sx nib bxor4 k1 (alpha_state bool false true)) t
    (mantis_core bool xorb andb false true r k0 k0' k1 t m) = m.
Proof.
  intros r k0 k0' k1 t m.
  exact (core_inverse nib bxor4 (c4nib bool false true) (Sb0 bool xorb andb true) nib0
           bxor4_assoc bxor4_comm bxor4_nilp bxor4_0_r Sb0_involutive r k0 k0' k1 t m).
Qed.

(* on byte strings; [k1'] is the inner key of the second call, so that the
   lemma reads in both directions *)
Lemma mcore_bytes_inverse r k0 k0' k1 k1' t blk : msx k1 malpha = k1' -> length blk = 8 ->
  store64 (mcore r k0' k0 k1' t (load64 (store64 (mcore r k0 k0' k1 t (load64 blk))))) = blk.
Proof.
  intros <- H. rewrite load_store64. unfold malpha. rewrite mantis_core_inverse.
  exact (store_load64 blk H).
Qed.

Theorem mantis_dec_enc : forall r key tw blk, length blk = 8 ->
  mantis_dec r key tw (mantis_enc r key tw blk) = blk.
Proof. intros r key tw blk. now apply mcore_bytes_inverse. Qed.

Theorem mantis_enc_dec : forall r key tw blk, length blk = 8 ->
  mantis_enc r key tw (mantis_dec r key tw blk) = blk.
Proof. intros r key tw blk. apply mcore_bytes_inverse, msx_cancel. Qed.

(* what set_key leaves in the key-schedule object, in encryption and in decryption mode *)
Definition mkey_enc (key : list byte) (r : N) : mantis_ks :=
  {| mk_k0 := load64 (firstn 8 key); mk_k0p := mk0prime (load64 (firstn 8 key));
     mk_k1 := load64 (firstn_skip 8 8 key); mk_tweak := mzero; mk_rounds := r |}.
Definition mkey_dec (key : list byte) (r : N) : mantis_ks :=
  {| mk_k0 := mk0prime (load64 (firstn 8 key)); mk_k0p := load64 (firstn 8 key);
     mk_k1 := msx (load64 (firstn_skip 8 8 key)) malpha; mk_tweak := mzero; mk_rounds := r |}.
Definition mkey (enc : bool) (key : list byte) (r : N) : mantis_ks :=
  if enc then mkey_enc key r else mkey_dec key r.

Lemma mantis_set_key_accepts ks key r mode : (5 <= r <= 8)%N ->
  mantis_set_key ks (Some key) 16 r mode
  = (1%N, if N.eqb mode 1 then mkey_enc key r else mkey_dec key r).
Proof.
  intros [H5 H8]. unfold mantis_set_key.
  apply N.leb_le in H5. apply N.leb_le in H8. rewrite H5, H8.
  change (N.eqb 16 16 && true && true)%bool with true. cbv iota.
  destruct (N.eqb mode 1); reflexivity.
Qed.

Lemma mantis_set_key_mode ks key r (enc : bool) : (5 <= r <= 8)%N ->
  mantis_set_key ks (Some key) 16 r (if enc then 1%N else 0%N) = (1%N, mkey enc key r).
Proof. intros H. rewrite (mantis_set_key_accepts ks key r _ H). destruct enc; reflexivity. Qed.

Definition tweak_state (tw : buf) : state nib :=
  match tw with Some t => load64 (pad_to 8 t) | None => mzero end.
Definition with_tweak (ks : mantis_ks) (t : state nib) : mantis_ks :=
  {| mk_k0 := mk_k0 ks; mk_k0p := mk_k0p ks; mk_k1 := mk_k1 ks;
     mk_tweak := t; mk_rounds := mk_rounds ks |}.
Lemma mantis_set_tweak_accepts ks tw : mantis_set_tweak ks tw 8 = (1%N, with_tweak ks (tweak_state tw)).
Proof. reflexivity. Qed.

Lemma load64_zeros : load64 (zeros 8) = mzero.
Proof. reflexivity. Qed.

(* C02: the model's key-schedule object and block function compute the specification *)
Theorem mantis_model_spec : forall (ks : mantis_ks) (key tw blk : list byte) (r : N),
  length key = 16 -> length tw = 8 -> length blk = 8 -> (5 <= r <= 8)%N ->
  exists ke kd,
    mantis_set_key ks (Some key) 16 r 1 = (1%N, ke) /\
    mantis_set_key ks (Some key) 16 r 0 = (1%N, kd) /\
    mantis_crypt ke blk = mantis_enc (N.to_nat r) key (zeros 8) blk /\
    mantis_crypt_tweaked ke tw blk = mantis_enc (N.to_nat r) key tw blk /\
    mantis_crypt (snd (mantis_set_tweak ke (Some tw) 8)) blk = mantis_enc (N.to_nat r) key tw blk /\
    mantis_crypt (snd (mantis_set_tweak ke None 8)) blk = mantis_enc (N.to_nat r) key (zeros 8) blk /\
    mantis_crypt_tweaked kd tw blk = mantis_dec (N.to_nat r) key tw blk /\
    mantis_crypt (snd (mantis_set_tweak kd (Some tw) 8)) blk = mantis_dec (N.to_nat r) key tw blk.
Proof.
  intros ks key tw blk r Hk Ht Hb Hr.
  exists (mkey_enc key r), (mkey_dec key r).
  split; [apply (mantis_set_key_accepts ks key r 1 Hr)|].
  split; [apply (mantis_set_key_accepts ks key r 0 Hr)|].
  rewrite !mantis_set_tweak_accepts. unfold tweak_state. rewrite (pad_to_id 8 tw Ht).
  repeat split; reflexivity.
Qed.

Theorem mantis_set_key_reject : forall ks key size r mode,
  (key = None \/ size <> 16%N \/ (r < 5)%N \/ (8 < r)%N) -> mantis_set_key ks key size r mode = (0%N, ks).
Proof.
  intros ks key size r mode H. unfold mantis_set_key.
  destruct key as [k|]; [|reflexivity].
  destruct H as [H|[H|H]].
  - discriminate H.
  - apply N.eqb_neq in H. rewrite H. reflexivity.
  - destruct H as [H|H]; apply N.leb_gt in H; rewrite H, andb_false_r; reflexivity.
Qed.

Theorem mantis_set_tweak_reject : forall ks tw size, size <> 8%N -> mantis_set_tweak ks tw size = (0%N, ks).
Proof.
  intros ks tw size H. unfold mantis_set_tweak. apply N.eqb_neq in H. rewrite H. reflexivity.
Qed.

(* C03 (MANTIS part): mode switching *)
Theorem swap_swap : forall ks, mantis_swap_modes (mantis_swap_modes ks) = ks.
Proof.
  intros [k0 k0p k1 t r]. unfold mantis_swap_modes. cbn [mk_k0 mk_k0p mk_k1 mk_tweak mk_rounds].
  rewrite msx_cancel. reflexivity.
Qed.

Theorem crypt_swap_inverse : forall ks blk, length blk = 8 ->
  mantis_crypt (mantis_swap_modes ks) (mantis_crypt ks blk) = blk.
Proof. intros ks blk. now apply mcore_bytes_inverse. Qed.

Theorem crypt_tweaked_swap_inverse : forall ks tw blk, length blk = 8 ->
  mantis_crypt_tweaked (mantis_swap_modes ks) tw (mantis_crypt_tweaked ks tw blk) = blk.
Proof. intros ks tw blk. now apply mcore_bytes_inverse. Qed.

Lemma swap_mkey enc key r t :
  mantis_swap_modes (with_tweak (mkey enc key r) t) = with_tweak (mkey (negb enc) key r) t.
Proof.
  destruct enc; unfold mantis_swap_modes, with_tweak, mkey, mkey_enc, mkey_dec;
    cbn [negb mk_k0 mk_k0p mk_k1 mk_tweak mk_rounds].
  - reflexivity.
  - rewrite msx_cancel. reflexivity.
Qed.

(* switching once = keying afresh in the other mode and re-applying the tweak *)
Theorem swap_is_rekey : forall ks key r tw (enc : bool), length key = 16 -> (5 <= r <= 8)%N ->
  let m := if enc then 1%N else 0%N in let m' := if enc then 0%N else 1%N in
  mantis_swap_modes (snd (mantis_set_tweak (snd (mantis_set_key ks (Some key) 16 r m)) tw 8))
  = snd (mantis_set_tweak (snd (mantis_set_key ks (Some key) 16 r m')) tw 8).
Proof.
  intros ks key r tw enc Hk Hr. cbv zeta.
  replace (if enc then 0%N else 1%N) with (if negb enc then 1%N else 0%N) by now destruct enc.
  rewrite !mantis_set_key_mode by exact Hr. rewrite !mantis_set_tweak_accepts. apply swap_mkey.
Qed.

(* any history of mode switches and tweak changes *)
Inductive mop : Type := MSwap | MTweak (tw : buf).
Definition mapply (ks : mantis_ks) (o : mop) : mantis_ks :=
  match o with MSwap => mantis_swap_modes ks | MTweak tw => snd (mantis_set_tweak ks tw 8) end.
Definition mparity (enc : bool) (ops : list mop) : bool :=
  fold_left (fun b o => match o with MSwap => negb b | MTweak _ => b end) ops enc.
Definition mlast (ops : list mop) : buf :=   (* latest tweak request; None = NULL = zero tweak; initially zero *)
  fold_left (fun t o => match o with MSwap => t | MTweak tw => tw end) ops None.

Lemma history_gen key r (ops : list mop) : forall (enc : bool) (t : buf),
  fold_left mapply ops (with_tweak (mkey enc key r) (tweak_state t))
  = with_tweak (mkey (mparity enc ops) key r)
      (tweak_state (fold_left (fun t o => match o with MSwap => t | MTweak tw => tw end) ops t)).
Proof.
  induction ops as [|[|tw] ops IH]; intros enc t; [reflexivity| |]; cbn [fold_left mapply].
  - rewrite swap_mkey. apply IH.
  - apply (IH enc tw).
Qed.

Theorem swap_tweak_history : forall ks key r (enc : bool) (ops : list mop), length key = 16 -> (5 <= r <= 8)%N ->
  fold_left mapply ops (snd (mantis_set_key ks (Some key) 16 r (if enc then 1%N else 0%N)))
  = snd (mantis_set_tweak (snd (mantis_set_key ks (Some key) 16 r (if mparity enc ops then 1%N else 0%N))) (mlast ops) 8).
Proof.
  intros ks key r enc ops Hk Hr. rewrite !mantis_set_key_mode by exact Hr. rewrite mantis_set_tweak_accepts. cbn [snd].
  replace (mkey enc key r) with (with_tweak (mkey enc key r) (tweak_state None))
    by (destruct enc; reflexivity).
  unfold mlast. apply history_gen.
Qed.

Print Assumptions Sb0_involutive.
Print Assumptions mantis_core_inverse.
Print Assumptions mantis_dec_enc.
Print Assumptions mantis_enc_dec.
Print Assumptions mantis_model_spec.
Print Assumptions mantis_set_key_reject.
Print Assumptions mantis_set_tweak_reject.
Print Assumptions swap_swap.
Print Assumptions crypt_swap_inverse.
Print Assumptions crypt_tweaked_swap_inverse.
Print Assumptions swap_is_rekey.
Print Assumptions swap_tweak_history.
